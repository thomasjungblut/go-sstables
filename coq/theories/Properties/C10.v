(* C10 - Recovery may be killed at any instant and repeated without changing the outcome.
   [rec_prog d] is recovery as the sequence of atomic effects the code performs on directory d
   (finish or discard a compaction - inputs removed before the rename; drop incomplete tables;
   replay the WAL into a new newest table; remove the WAL files oldest first; clear the WAL
   directory); [rec_cut d n] the directory after its first n effects; [rec_reach] any number of
   such interrupted attempts, each starting afresh on what the previous left.  For every directory
   a kill can leave (Reach, see C02) every such chain ends in a directory that recovers to the same
   content as the uninterrupted recovery, and the uninterrupted program ends exactly in [recover d].
   Tie: the recovery of selected crash images is itself traced and cut at every system-call boundary
   (RemoveAll runs: every subset of the unlinks, i.e. every listing order), the real Open runs on
   each nested image; the abstraction of each must recover to the same content in the model and
   each change must be one effect of the model. *)
From GoSST Require Import Fs.Crash Fs.CrashFacts Fs.OrderFacts.
From GoSSTGen Require Import FactsCode.

Theorem C10_recovery_idempotent :
  forall d d' : disk, Reach d -> rec_reach d d' ->
  exists m m', view d = Some m /\ view d' = Some m' /\ kv_eq m m'.
Proof. exact recovery_idempotent. Qed.

Theorem C10_rec_prog_is_recover :
  forall d : disk, Reach d -> exists p d', rec_prog d = Some p /\ fs_run d p = Some d' /\ recover d = Some d'.
Proof. exact rec_prog_is_recover. Qed.

Theorem C10_order_facts :
  open_stage_order = true /\ recovery_inputs_removed_before_rename = Some true /\
  recovery_drops_incomplete_tables = true /\ recovery_flush_before_wal_removal = Some true /\
  wal_removal_sorts_names = Some true /\ recovery_wal_files_oldest_first_before_removeall = Some true.
Proof. pose proof order_facts as H. repeat split; apply H. Qed.

Print Assumptions C10_recovery_idempotent.
Print Assumptions C10_rec_prog_is_recover.
Print Assumptions C10_order_facts.
