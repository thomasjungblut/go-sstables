(* C11 - I/O failures during merge, compaction and flush are reported, never absorbed.
   Only the property theorems (closed by exact) and their assumptions. *)
From GoSST Require Import Base.Bytes SST.Merge SST.MergeFacts.
From GoSST Require Import Fs.OrderFacts.
From GoSST Require SST.TableReader SST.DamageTableFacts RecordIO.Format.
From GoSSTGen Require Import FactsCode.
Local Open Scope N_scope.

(* a failing read of ANY input record makes both merges fail, whatever the writer does *)
Theorem C11_merge_reports_input_fault :
  forall St (w : sink St) (inputs : list mstream) (s : St),
  (exists i e, In i inputs /\ In (Err e) i) ->
  (exists e, snd (merge w inputs s) = Err e)
  /\ (forall reduce, exists e, snd (merge_compact reduce w inputs s) = Err e).
Proof. exact @merge_reports_input_fault. Qed.
(* an incomplete merged table is never declared successful: in the source the merge and the Close of the
   merged table (whose error is checked) come before the success flag is written; re-read on every run *)
Theorem C11_success_flag_after_close :
  compaction_merge_before_flag = Some true /\ compaction_writer_closed_before_flag = Some true.
Proof. pose proof order_facts as H; split; apply H. Qed.

Print Assumptions C11_merge_reports_input_fault.

(* MergeCompact = feed the merged sequence to the writer, stop at its first error: a failed write
   is reported, and success means the writer received the complete fault-free output *)
Theorem C11_merge_compact_is_feed :
  forall St (reduce : reduce_fn) (w : sink St) (tables : list table) (s : St),
  Forall tsorted tables ->
  merge_compact reduce w (map as_stream tables) s
  = feed w s (map (fun kv => (fst kv, Some (snd kv))) (fst (scan_merged reduce (map as_stream tables)))).
Proof. exact @merge_compact_is_feed. Qed.
Print Assumptions C11_merge_compact_is_feed.

Theorem C11_merge_is_feed_disjoint :
  forall St (w : sink St) (tables : list table) (s : St),
  Forall tsorted tables -> disjoint_keys tables ->
  merge w (map as_stream tables) s = feed w s (union_latest tables).
Proof. exact @merge_disjoint_union. Qed.
Print Assumptions C11_merge_is_feed_disjoint.
Print Assumptions C11_success_flag_after_close.

(* the read of an input record fails - and is not answered with nil, which a merge would write as a tombstone - when
   the index names a value offset at or behind the end of the data file (a data file that lost its tail), under every
   reader option (until fix 3f24fb5 the real reader answered nil here; harness witness
   corpus/C11_fixed_seek_iterator_cut_at_boundary.json) *)
Theorem C11_lost_value_is_a_read_error :
  forall (r : SST.TableReader.reader) (off crc : N) (skip : bool),
  RecordIO.Format.lenN (SST.TableReader.r_data r) <= off -> exists e, SST.TableReader.get_value_at r off crc skip = Err e.
Proof. exact SST.DamageTableFacts.offset_behind_data_is_error. Qed.
Print Assumptions C11_lost_value_is_a_read_error.

(* a flush or compaction that fails on its background goroutine stops the process: in the source the failure ends in
   log.Panicf, no deferred function of the goroutine sends on a channel (such a send runs before the panic leaves the
   goroutine and parks it - until fix 49bf1c8 it did, witnesses corpus/C11_fixed_background_*.json), and the compactor
   checks the error of a cycle before anything else; re-read from the source on every run *)
Theorem C11_background_failure_stops_the_process :
  bg_flush_panic_not_parked = true /\ bg_compaction_panic_not_parked = true /\ bg_compaction_error_checked_first = true.
Proof. exact background_facts. Qed.
Print Assumptions C11_background_failure_stops_the_process.
