(* C03 - an SSTable returns exactly what was written, for every index type and option.
   One theorem per index loader, each for every pair of codecs with decomp (comp x) = x (hence
   the 4 x 4 compression pairs), with the bloom filter the writer built; that any filter without
   false negatives gives the same Contains is shown for the slice loader
   (C03_bloom_false_positives_harmless); buffer sizes do not occur in the model (checked by the
   correspondence).  The map loader's statement is
   restricted to keys of exactly the mapper width: in general it is false (F-C03c, open finding),
   exhibited by C03_map_index_refuted. *)
From GoSST Require Import Base.Bytes RecordIO.Format.
From GoSST Require Import Base.CodeFacts.
From GoSSTGen Require Import FactsCode.
From GoSST Require Import SST.TableWriter SST.Index SST.IndexFacts SST.TableReader SST.TableReaderFacts SST.DiskIndexFacts.
Local Open Scope N_scope.

Theorem C03_table_is_sorted_map_slice :
  forall (ci cd : codec),
  (forall x, decomp ci (comp ci x) = Ok x) -> (forall x, decomp cd (comp cd x) = Ok x) ->
  ctype ci <= 3 -> ctype cd <= 3 ->
  forall kvs : tpairs,
  psorted kvs -> Forall (pair_ok ci cd) kvs -> Forall val_ok kvs -> file_ok cd kvs ->
  exists r, open_table LSlice (write_table ci cd kvs) ci cd = Ok r /\ behaves_as_sorted_map r kvs.
Proof. exact table_is_sorted_map_slice. Qed.
(* the constructors the two sides call in the source, re-read on every run *)
Theorem C03_bloom_hash_same_on_both_sides :
  bloom_hash_writer = bloom_hash_reader.
Proof. apply hash_facts. Qed.

Print Assumptions C03_table_is_sorted_map_slice.

Theorem C03_table_is_sorted_map_skiplist :
  forall (ci cd : codec),
  (forall x, decomp ci (comp ci x) = Ok x) -> (forall x, decomp cd (comp cd x) = Ok x) ->
  ctype ci <= 3 -> ctype cd <= 3 ->
  forall kvs : tpairs,
  psorted kvs -> Forall (pair_ok ci cd) kvs -> Forall val_ok kvs -> file_ok cd kvs ->
  exists r, open_table LSkipList (write_table ci cd kvs) ci cd = Ok r /\ behaves_as_sorted_map r kvs.
Proof. exact table_is_sorted_map_skiplist. Qed.
Print Assumptions C03_table_is_sorted_map_skiplist.

Theorem C03_table_is_sorted_map_disk :
  forall (ci cd : codec),
  (forall x, decomp ci (comp ci x) = Ok x) -> (forall x, decomp cd (comp cd x) = Ok x) ->
  ctype ci <= 3 -> ctype cd <= 3 ->
  forall (sl : N) (kvs : tpairs),
  4 <= sl ->
  psorted kvs -> Forall (pair_ok ci cd) kvs -> Forall val_ok kvs -> file_ok cd kvs ->
  no_embedded ci cd kvs ->
  exists r, open_table (LDisk sl) (write_table ci cd kvs) ci cd = Ok r /\ behaves_as_sorted_map r kvs.
Proof. exact table_is_sorted_map_disk. Qed.
Print Assumptions C03_table_is_sorted_map_disk.

Theorem C03_table_is_sorted_map_map_fixed_width :
  forall (ci cd : codec),
  (forall x, decomp ci (comp ci x) = Ok x) -> (forall x, decomp cd (comp cd x) = Ok x) ->
  ctype ci <= 3 -> ctype cd <= 3 ->
  forall (w : nat) (kvs : tpairs),
  psorted kvs -> Forall (pair_ok ci cd) kvs -> Forall val_ok kvs -> file_ok cd kvs ->
  Forall (fun kv => length (fst kv) = w) kvs ->
  exists r, open_table (LMap w) (write_table ci cd kvs) ci cd = Ok r
    /\ (forall k, length k = w -> rd_contains r k = Ok (spec_contains kvs k))
    /\ (forall k, length k = w -> rd_get r k = spec_get kvs k)
    /\ rd_scan r = (kvs, None)
    /\ (forall a, rd_scan_from r a = (spec_from kvs a, None))
    /\ (forall a b, bcmp a b <> Gt -> rd_scan_range r a b = Some (spec_range kvs a b, None))
    /\ (forall a b, bcmp a b = Gt -> rd_scan_range r a b = None).
Proof. exact table_is_sorted_map_map. Qed.
Print Assumptions C03_table_is_sorted_map_map_fixed_width.

(* F-C03c: for keys shorter than the mapper width the map index finds unwritten keys *)
Theorem C03_map_index_refuted :
  exists w es key, esorted es /\ (length key <= w)%nat /\ Forall (fun e => (length (ikey e) <= w)%nat) es
    /\ has_key es key = false /\ map_get w es key None <> None.
Proof. exact map_get_refuted. Qed.
Print Assumptions C03_map_index_refuted.

(* no bloom-filter false negative, and false positives are harmless *)
Theorem C03_bloom_false_positives_harmless :
  forall (ci cd : codec),
  (forall x, decomp ci (comp ci x) = Ok x) -> (forall x, decomp cd (comp cd x) = Ok x) ->
  ctype ci <= 3 -> ctype cd <= 3 ->
  forall (kvs : tpairs) (bloom : bytes -> bool),
  psorted kvs -> Forall (pair_ok ci cd) kvs -> Forall val_ok kvs -> file_ok cd kvs ->
  (forall kv, In kv kvs -> bloom (fst kv) = true) ->
  let t := write_table ci cd kvs in
  exists r, open_reader LSlice ci cd (tf_index t) (tf_data t) bloom false false = Ok r
    /\ (forall k, rd_contains r k = Ok (spec_contains kvs k)).
Proof. exact bloom_false_positives_harmless. Qed.
Print Assumptions C03_bloom_false_positives_harmless.
Print Assumptions C03_bloom_hash_same_on_both_sides.

(* F-C03d (known finding): without no_embedded the disk loader's theorem is false - a key that
   contains the complete image of an index record makes the binary search over byte offsets land
   inside that key; the table opens, a written key is reported absent and the scan delivers a key
   that was never written. *)
Theorem C03_disk_index_embedded_refuted :
  exists (ci cd : codec) (sl : N) (kvs : tpairs),
    (forall x, decomp ci (comp ci x) = Ok x) /\ (forall x, decomp cd (comp cd x) = Ok x)
    /\ ctype ci <= 3 /\ ctype cd <= 3
    /\ 4 <= sl
    /\ psorted kvs /\ Forall (pair_ok ci cd) kvs /\ Forall val_ok kvs /\ file_ok cd kvs
    /\ ~ no_embedded ci cd kvs
    /\ (exists r, open_table (LDisk sl) (write_table ci cd kvs) ci cd = Ok r)
    /\ (forall r, open_table (LDisk sl) (write_table ci cd kvs) ci cd = Ok r -> ~ behaves_as_sorted_map r kvs).
Proof. exact disk_index_embedded_refuted. Qed.
Print Assumptions C03_disk_index_embedded_refuted.
