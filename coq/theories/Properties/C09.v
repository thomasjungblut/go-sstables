(* C09 - a damaged SSTable data file is detected, never served as different data.
   The theorems quantify over ARBITRARY data-file bytes (any damage whatsoever).
   From "same CRC-64" to "same value" for arbitrary damage is a 2^-64 collision statement and is
   not claimed; for single-byte payload damage it is proved outright (burst lemma). *)
From GoSST Require Import Base.Bytes Base.Crc RecordIO.Format RecordIO.MmapReader.
From GoSST Require Import Base.CodeFacts.
From GoSSTGen Require Import FactsCode.
From GoSST Require Import SST.TableWriter SST.TableReader SST.DamageTableFacts.
Local Open Scope N_scope.

Theorem C09_checked_read_same_crc :
  forall (r : reader) (off crc : N) (v : option bytes),
  get_value_at r off crc false = Ok v -> crc64iso (payload_of v) = crc \/ crc = 0.
Proof. exact checked_read_same_crc. Qed.
(* the constructors the two sides call in the source, re-read on every run *)
Theorem C09_value_checksum_same_on_both_sides :
  value_crc_writer_iso = true /\ value_crc_reader_iso = true.
Proof. pose proof hash_facts as H; split; apply H. Qed.

Print Assumptions C09_checked_read_same_crc.

Theorem C09_load_validates_all :
  forall (ld : loader) (ci cd : codec) (index_file data_file : bytes) bloom (r : reader),
  open_reader ld ci cd index_file data_file bloom false false = Ok r ->
  forall es, idx_all r = Ok es ->
  forall e, In e es ->
  exists v, get_value_at r (snd (fst e)) (snd e) true = Ok v
            /\ (crc64iso (payload_of v) = snd e \/ snd e = 0).
Proof. exact load_validates_all. Qed.
Print Assumptions C09_load_validates_all.

Theorem C09_single_byte_damage_rejected :
  forall (r : reader) (off : N) (pre post : bytes) (b b' : N),
  Forall (fun x => x < 256) pre -> Forall (fun x => x < 256) post -> b < 256 -> b' < 256 -> b <> b' ->
  crc64iso (pre ++ b :: post) <> 0 ->
  read_at (r_cd r) (r_data r) off = Ok (Some (pre ++ b' :: post)) ->
  get_value_at r off (crc64iso (pre ++ b :: post)) false = Err ValueChecksum.
Proof. exact damaged_value_rejected. Qed.
Print Assumptions C09_single_byte_damage_rejected.
Print Assumptions C09_value_checksum_same_on_both_sides.

(* The hypothesis "the indexed checksum is not zero" in the theorems above cannot be dropped: zero marks
   "no checksum" (empty and nil values, legacy tables) but it is also the CRC-64/ISO of non-empty values such as
   f4 42 2f f4 42 2f f4 12; for such a value the per-read check accepts whatever the data file holds at its offset.
   Replayed on the implementation as finding F-C09a (open: repairing it needs a format decision). *)
Theorem C09_zero_checksum_refuted :
  crc0_value <> [] /\ crc64iso crc0_value = 0 /\
  forall (r : reader) (off : N) (v' : option bytes),
    read_at (r_cd r) (r_data r) off = Ok v' -> get_value_at r off (crc64iso crc0_value) false = Ok v'.
Proof. exact (conj (proj1 crc0_value_facts) (conj (proj2 crc0_value_facts) zero_checksum_value_unprotected)). Qed.
Print Assumptions C09_zero_checksum_refuted.
