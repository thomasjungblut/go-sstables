(* C04 - RecordIO returns written records unchanged through every reader and access path.
   Only the property theorems (closed by exact) and their assumptions.
   Quantification: every codec with decomp (comp x) = Ok x (hence each compression type),
   every writer program with seeks back to surviving boundaries, every reader program,
   every byte string / offset / scan window >= 4 for SeekNext.  Buffer sizes do not occur in the
   model: their irrelevance is checked by the correspondence (DESIGN section 6, C04). *)
From GoSST Require Import Base.Bytes RecordIO.Format RecordIO.Writer RecordIO.SeqReader RecordIO.MmapReader.
From GoSST Require Import Base.CodeFacts.
From GoSSTGen Require Import FactsCode.
From GoSST Require Import RecordIO.WriteReadFacts RecordIO.SeekFacts.
Local Open Scope N_scope.

Theorem C04_write_then_read :
  forall (c : codec), (forall x, decomp c (comp c x) = Ok x) -> ctype c <= 3 ->
  forall ops fuel,
    prog_ok c ops 8 [] = true -> Forall (op_ok c) ops -> (length (surv c ops) < fuel)%nat ->
    r_open (written c ops) = Ok 8
    /\ read_all fuel c (written c ops) 8 = map (fun p => Ok (snd p)) (surv c ops) ++ [Err EOF].
Proof. exact write_then_read. Qed.
(* the constructors the two sides call in the source, re-read on every run *)
Theorem C04_header_checksum_same_on_both_sides :
  header_crc_writer_castagnoli = true /\ header_crc_reader_castagnoli = true.
Proof. pose proof hash_facts as H; split; apply H. Qed.

Print Assumptions C04_write_then_read.

Theorem C04_offsets_are_addresses :
  forall (c : codec), (forall x, decomp c (comp c x) = Ok x) -> ctype c <= 3 ->
  forall ops,
    prog_ok c ops 8 [] = true -> Forall (op_ok c) ops ->
    forall off r, In (off, r) (surv c ops) -> read_at c (written c ops) off = Ok r.
Proof. exact offsets_are_addresses. Qed.
Print Assumptions C04_offsets_are_addresses.

Theorem C04_size_is_end :
  forall (c : codec), (forall x, decomp c (comp c x) = Ok x) -> ctype c <= 3 ->
  forall ops,
    prog_ok c ops 8 [] = true -> Forall (op_ok c) ops ->
    written c ops = file_hdr (ctype c) ++ flat_map (fun p => enc_rec c (snd p)) (surv c ops)
    /\ w_size (fst (w_run c ops (w_open c))) = lenN (written c ops).
Proof. exact (fun c _ Hct => written_is_concat c Hct). Qed.
Print Assumptions C04_size_is_end.

Theorem C04_skip_is_read_discard :
  forall (c : codec), (forall x, decomp c (comp c x) = Ok x) -> ctype c <= 3 ->
  forall ops prog,
    prog_ok c ops 8 [] = true -> Forall (op_ok c) ops ->
    read_mixed c (written c ops) 8 prog = mix prog (map snd (surv c ops)).
Proof. exact skip_is_read_discard. Qed.
Print Assumptions C04_skip_is_read_discard.

(* SeekNext: for EVERY byte string, not only written files *)
Theorem C04_seek_next_first :
  forall (c : codec) (seekLen : N) (f : bytes) (off : N),
  4 <= seekLen -> off <= lenN f ->
  match seek_next c seekLen f off with
  | Ok (o, r) =>
      off <= o /\ acceptable c f o = true /\ read_at c f o = Ok r
      /\ (forall o', off <= o' -> o' < o -> acceptable c f o' = false)
  | Err EOF => forall o', off <= o' -> acceptable c f o' = false
  | Err _ => False
  end.
Proof. exact seek_next_first. Qed.
Print Assumptions C04_seek_next_first.

Theorem C04_seek_next_written :
  forall (c : codec) (seekLen : N) (f : bytes) (recs : list (N * option bytes)) (off : N),
  4 <= seekLen -> off <= lenN f ->
  (forall pre o r post, recs = pre ++ (o, r) :: post -> Forall (fun p => fst p < o) pre) ->
  (forall o r, In (o, r) recs -> acceptable c f o = true /\ read_at c f o = Ok r) ->
  (forall o, acceptable c f o = true -> In o (map fst recs)) ->
  seek_next c seekLen f off =
    match first_at_or_after off recs with Some p => Ok p | None => Err EOF end.
Proof. exact seek_next_written. Qed.
Print Assumptions C04_seek_next_written.
Print Assumptions C04_header_checksum_same_on_both_sides.

(* F-C04e (known finding): the documented promise "SeekNext returns the first record that STARTS at
   or after the offset" does not hold - a payload containing the complete image of a record makes
   SeekNext return a position inside that payload, where no record was written. *)
Theorem C04_seek_next_embedded_refuted :
  exists (c : codec) (ops : list wop) (seekLen off o : N) (r : option bytes),
    (forall x, decomp c (comp c x) = Ok x) /\ ctype c <= 3
    /\ prog_ok c ops 8 [] = true /\ Forall (op_ok c) ops
    /\ 4 <= seekLen /\ off <= lenN (written c ops)
    /\ seek_next c seekLen (written c ops) off = Ok (o, r)
    /\ ~ In o (map fst (surv c ops))
    /\ (exists o' r', In (o', r') (surv c ops) /\ off <= o').
Proof. exact seek_next_embedded_refuted. Qed.
Print Assumptions C04_seek_next_embedded_refuted.
