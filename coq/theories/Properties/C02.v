(* C02 - Acknowledged writes survive a process kill at any instant (synchronous WAL).
   Fs/Crash.v models the directory (tables Partial/Complete/Half-removed, WAL files, compaction
   directory with its flag) and every atomic effect on it of the client thread, the flusher, the
   compactor and recovery; a session is ANY interleaving of those (Crash.sstep), a crash leaves
   the disk of that instant, [recover]/[view] are what an uninterrupted Open makes of it.
   [Reach] closes under crashing sessions (either WAL mode) and crashing recoveries, so the
   theorem covers sessions started on directories with any crash history.
   The order of the effects inside each actor is the order of the calls in the source, re-read on
   every run (C02_order_facts).  Tie to the code: traced sessions (strace), an image at every
   boundary between two mutating system calls and at every return instant, the real Open on each;
   the abstraction of each image must recover, in the model, to what the real Open read back and
   to the same table list, and each change between consecutive images must be one model effect. *)
From GoSST Require Import Fs.Crash Fs.CrashFacts Fs.OrderFacts.
From GoSSTGen Require Import FactsCode.

Theorem C02_sync_crash_safe :
  forall (d d1 : disk) (base : kvmap) (acts : list saction) (s : sess),
  Reach d -> recover d = Some d1 -> view d = Some base ->
  srun (sess_init false d1) acts = Some s ->
  exists m, view (s_disk s) = Some m /\
            (kv_eq m (kv_after base (s_acked s)) \/ kv_eq m (kv_after base (s_acked s ++ inflight s))).
Proof. exact sync_crash_safe. Qed.

(* re-opening succeeds on every directory a kill can leave *)
Theorem C02_reachable_recovers : forall d : disk, Reach d -> exists d', recover d = Some d'.
Proof. exact reachable_recovers. Qed.

Theorem C02_order_facts :
  put_wal_before_memstore = Some true /\ delete_wal_before_memstore = Some true /\
  flush_uses_tombstones = true /\ flush_table_before_wal_remove = Some true /\ flush_wal_remove_before_install = Some true /\
  table_close_data_before_meta = Some true /\ table_close_meta_last = Some true /\
  compaction_sorts_paths = true /\ compaction_merge_before_flag = Some true /\ compaction_writer_closed_before_flag = Some true /\
  reflect_removes_before_rename = Some true /\
  open_stage_order = true /\ recovery_inputs_removed_before_rename = Some true /\
  recovery_drops_incomplete_tables = true /\ recovery_sorts_table_paths = true /\ replay_sorts_files = true /\
  recovery_flush_before_wal_removal = Some true /\ wal_removal_sorts_names = Some true /\
  recovery_wal_files_oldest_first_before_removeall = Some true.
Proof. exact order_facts. Qed.

Print Assumptions C02_sync_crash_safe.
Print Assumptions C02_reachable_recovers.
Print Assumptions C02_order_facts.
