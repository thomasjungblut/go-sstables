(* C07 - WAL replay yields the appended records in order; synced appends survive a kill.
   Logical half: for every program of appends and forced rotations, every size limit.
   Crash half, byte level: the newest file cut at ANY length (a superset of the images that kill
   instants between system calls produce), older files intact: replay succeeds and delivers the
   older files' records plus exactly the records wholly contained in the cut file.  That each
   AppendSync has written and fsynced its record before it returns is an ordering property of
   system calls: it is checked on the strace of the real appender by the correspondence. *)
From GoSST Require Import Base.Bytes RecordIO.Format Wal.Wal Wal.WalFacts.
From GoSST Require Import Fs.OrderFacts RecordIO.BufWriter Wal.LogProgram.
From GoSSTGen Require Import FactsCode.
Local Open Scope N_scope.

Theorem C07_replay_is_appended :
  forall (c : codec), (forall x, decomp c (comp c x) = Ok x) -> ctype c <= 3 ->
  forall (max : N) (ops : list wop),
  Forall (wop_ok c) ops -> a_failed (run c max ops) = false ->
  replay c (app_files (run c max ops)) = (appended ops, None).
Proof. exact replay_is_appended. Qed.
Print Assumptions C07_replay_is_appended.

Theorem C07_files_are_numbered_groups :
  forall (c : codec), (forall x, decomp c (comp c x) = Ok x) -> ctype c <= 3 ->
  forall (max : N) (ops : list wop),
  Forall (wop_ok c) ops -> a_failed (run c max ops) = false ->
  exists groups : list (list bytes),
    map snd (app_files (run c max ops)) = map (wal_file c) groups
    /\ concat groups = appended ops
    /\ map fst (app_files (run c max ops)) = map N.of_nat (seq 0 (length groups)).
Proof. exact (fun c _ H => app_files_shape c H). Qed.
Print Assumptions C07_files_are_numbered_groups.

Theorem C07_wal_crash_prefix :
  forall (c : codec), (forall x, decomp c (comp c x) = Ok x) -> ctype c <= 3 ->
  forall (closed : list (list bytes)) (last : list bytes) (n : N),
  Forall (Forall (rec_ok c)) closed -> Forall (rec_ok c) last -> n <= lenN (wal_file c last) ->
  replay_files c (map (wal_file c) closed ++ [firstn (N.to_nat n) (wal_file c last)])
  = (concat closed ++ contained c last n, None).
Proof. exact wal_crash_prefix. Qed.
Print Assumptions C07_wal_crash_prefix.

(* what is delivered from the cut file is a prefix of its records and contains every record
   whose bytes are completely inside the cut (in particular every record written and fsynced) *)
Theorem C07_contained_is_prefix_and_complete :
  forall (c : codec), ctype c <= 3 ->
  (forall (rs : list bytes) (n : N), exists rest, rs = contained c rs n ++ rest)
  /\ (forall (pre : list bytes) (r : bytes) (post : list bytes) (n : N),
        lenN (wal_file c (pre ++ [r])) <= n ->
        exists rest, contained c (pre ++ r :: post) n = pre ++ r :: rest).
Proof. intros c H. split; [exact (contained_prefix c)|exact (contained_complete c H)]. Qed.
Print Assumptions C07_contained_is_prefix_and_complete.

(* the order of the persistence steps of the log in the source, re-read from the Go syntax trees on every run: a
   synchronous append writes, flushes, then fsyncs; Close flushes before it truncates or closes; Rotate closes the old
   file before the next one exists - which is why the cut file of C07_wal_crash_prefix is the newest one and why no
   image shows a file longer than its flushed content *)
Theorem C07_log_order_facts :
  writesync_write_before_flush = Some true /\ writesync_flush_before_fsync = Some true /\
  writer_close_flush_before_truncate = Some true /\ writer_close_flush_before_close = Some true /\
  appendsync_uses_writesync = true /\ appendsync_checks_size_first = Some true /\
  rotate_closes_before_next_file = Some true.
Proof. exact log_facts. Qed.
Print Assumptions C07_log_order_facts.

(* behind the write buffer (recordio/bufio_vendor.go, modelled in RecordIO/BufWriter.v and compared call by call with
   the real writer): when a synchronous append returns, the file holds every record appended so far, whole - for ANY
   buffer size and ANY earlier mix of synchronous and asynchronous appends *)
Theorem C07_sync_append_reaches_the_file :
  forall (c : codec) (cap : nat) (rs : list (bool * bytes)) (r : bytes),
  written_by (concat (fst (bw_run cap [] (log_ops c (rs ++ [(true, r)])))))
  = wal_file c (map snd (rs ++ [(true, r)])).
Proof. exact sync_append_reaches_the_file. Qed.
Print Assumptions C07_sync_append_reaches_the_file.

(* the appends of every log file of a session, as the rotation rule of the appender groups them ([log_groups] - what the
   correspondence feeds, file by file, to the model of writer program + write buffer to predict the write system calls),
   are exactly the files of the appender model above *)
Theorem C07_log_groups_are_the_files :
  forall (c : codec), ctype c <= 3 ->
  forall (max : N) (ops : list wop) (syncs : list bool),
  Forall (wop_ok c) ops -> a_failed (run c max ops) = false ->
  map (fun g => wal_file c (map snd g)) (log_groups c max ops syncs 8 [] [])
  = map snd (app_files (run c max ops)).
Proof. exact log_groups_are_the_files. Qed.
Print Assumptions C07_log_groups_are_the_files.
