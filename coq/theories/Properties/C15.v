(* C15 - a table holds exactly the accepted writes, ascending, with truthful metadata.
   Only the property theorems (closed by exact) and their assumptions. *)
From GoSST Require Import Base.Bytes Base.ProtoWire RecordIO.Format.
From GoSST Require Import SST.TableWriter SST.TableWriterFacts.
From Coq Require Import Sorting.Sorted.
Local Open Scope N_scope.

(* every call's verdict: rejected iff the key is not greater than the last ACCEPTED key; an
   injected append failure is reported and the call has no effect on what is accepted later *)
Theorem C15_writer_results :
  forall (ci cd : codec) (calls : list call),
  snd (tw_run calls (tw_open ci cd)) = fst (spec_run calls None).
Proof. exact writer_results. Qed.
Print Assumptions C15_writer_results.

Theorem C15_accepted_ascending :
  forall calls, StronglySorted (fun a b => bcmp (fst a) (fst b) = Lt) (accepted calls).
Proof. exact accepted_ascending. Qed.
Print Assumptions C15_accepted_ascending.

(* the closed files hold exactly the accepted pairs; failed appends leave no trace *)
Theorem C15_writer_accepts_exactly :
  forall (ci cd : codec) (calls : list call),
  calls_ok cd calls ->
  let t := tw_close (fst (tw_run calls (tw_open ci cd))) in
  let acc := accepted calls in
  tf_data t = file_hdr (ctype cd) ++ flat_map (fun kv => enc_rec cd (snd kv)) acc
  /\ tf_index t = file_hdr (ctype ci)
       ++ flat_map (fun e => enc_rec ci (Some (pb_index_entry (fst (fst e)) (snd (fst e)) (snd e)))) (entries_of cd acc 8).
Proof. exact writer_accepts_exactly. Qed.
Print Assumptions C15_writer_accepts_exactly.

Theorem C15_metadata_truthful :
  forall (ci cd : codec) (calls : list call),
  calls_ok cd calls ->
  let t := tw_close (fst (tw_run calls (tw_open ci cd))) in
  let acc := accepted calls in
  tf_num t = N.of_nat (length acc)
  /\ tf_nulls t = count_nil acc
  /\ tf_min t = option_map fst (hd_error acc)
  /\ tf_max t = option_map fst (hd_error (rev acc))
  /\ tf_data_bytes t = lenN (tf_data t)
  /\ tf_index_bytes t = lenN (tf_index t).
Proof. exact metadata_truthful. Qed.
Print Assumptions C15_metadata_truthful.
