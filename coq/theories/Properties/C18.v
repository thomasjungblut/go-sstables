(* C18 - Documented concurrent use is data-race free and gives single-threaded answers.
   PARTIAL by nature: absence of data races is a property of the Go memory model and is decided by
   the race detector on the implementation (harness c18.go), not by a theorem.  What the models
   carry is the logic that makes each call's answer independent of the others:
   (1) database: in EVERY schedule of the concurrent machine (Db/Conc.v; any number of threads,
       rotations, installs, compactions interleaved) a key written by one thread only reads - for
       every thread - as that thread's own operations linearized so far have left it, and each
       thread's operations take effect in its program order; so a goroutine working on its own keys
       sees exactly its single-threaded answers, and keys nobody writes read the same forever.
       This is the oracle of the database stage of the harness.
   (2) readers: calls on one reader handle share a buffer pool; in EVERY interleaving of the
       sub-steps (take buffer, fill from the immutable mapping, decode/copy out, give back) of any
       number of calls, every call is answered exactly as alone.  The sequential answer itself is
       the reader model of C04/C12/C03 (functions of the file bytes only).
   Not modelled: the Go runtime, the mmap package, the compressors' internal state, sync.Pool
   internals - these are covered by the race detector and the differential comparison only. *)
From GoSST Require Import Base.Bytes Db.Conc Db.OwnedFacts Conc.Pool Conc.PoolFacts.
Local Open Scope N_scope.

Theorem C18_owned_key_reads_own_writes_partial :
  forall (acts : list action) (s : cstate) (t : N) (k : bytes),
  crun c_init acts = Some s ->
  only_writer t k (lin_points c_init acts) ->
  forall pre t' v post, lin_points c_init acts = pre ++ (t', CGet k, RGet v) :: post ->
  v = own_view t k pre.
Proof. exact owned_key_reads_own_writes. Qed.

Theorem C18_program_order_kept_partial :
  forall (acts : list action) (t : N),
  is_prefix (map (fun e => snd (fst e)) (filter (fun e => fst (fst e) =? t) (lin_points c_init acts)))
            (invoked_by t c_init acts).
Proof. exact program_order_kept. Qed.

Theorem C18_pooled_calls_answer_as_alone_partial :
  forall (R : Type) (window : N -> bytes) (decode : bytes -> R) (acts : list pact),
  Forall (fun a => snd a = decode (window (snd (fst a)))) (panswers R window decode (p_init R) acts).
Proof. exact pooled_calls_answer_as_alone. Qed.

Print Assumptions C18_owned_key_reads_own_writes_partial.
Print Assumptions C18_program_order_kept_partial.
Print Assumptions C18_pooled_calls_answer_as_alone_partial.
