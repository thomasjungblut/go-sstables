(* C14 - the memstore behaves as a map with tombstones and flushes to an equal table.
   Only the property theorems (closed by exact) and their assumptions. *)
From GoSST Require Import Base.Bytes Struct.SkipList Mem.MemStore Mem.MemStoreFacts.
From Coq Require Import Sorting.Sorted.
Local Open Scope N_scope.

(* every result and error, the byte-exact size estimate after every call, iteration order,
   Size, final content: all equal the reference map with tombstones (r_step / r_run) *)
Theorem C14_memstore_refines_ref :
  forall (hs : list nat) (ops : list msop),
  Forall (fun h => 1 <= h)%nat hs ->
  bounded [] ops ->
  let '(s, outs) := ms_run hs ms_empty ops in
  let '(l, routs) := r_run [] ops in
  outs = routs
  /\ kvs (ms_list s) = l
  /\ ms_iter s = l
  /\ ms_size s = length l
  /\ StronglySorted (fun a b => bcmp (fst a) (fst b) = Lt) l
  /\ ms_est s = r_bytes l.
Proof. exact memstore_refines_ref. Qed.
Print Assumptions C14_memstore_refines_ref.

(* the uint64 estimate written with wrap-around equals the unbounded sum: it never wraps below zero *)
Theorem C14_size_estimate_exact :
  forall (hs : list nat) (ops : list msop),
  Forall (fun h => 1 <= h)%nat hs ->
  bounded [] ops ->
  map snd (snd (ms_run hs ms_empty ops)) = map snd (snd (r_run [] ops)).
Proof. exact size_estimate_exact. Qed.
Print Assumptions C14_size_estimate_exact.

Theorem C14_flush_equals_ref :
  forall (hs : list nat) (ops : list msop),
  Forall (fun h => 1 <= h)%nat hs ->
  bounded [] ops ->
  let s := fst (ms_run hs ms_empty ops) in
  let l := fst (r_run [] ops) in
  ms_flush_pairs true s = l /\ ms_flush_pairs false s = filter live l.
Proof. exact flush_equals_ref. Qed.
Print Assumptions C14_flush_equals_ref.
