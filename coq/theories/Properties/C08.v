(* C08 - merging or stacking tables equals the latest-wins union of their contents.
   Only the property theorems (closed by exact) and their assumptions. *)
From GoSST Require Import Base.Bytes SST.TableReader SST.Merge SST.MergeFacts SST.Super SST.SuperFacts.
Local Open Scope N_scope.

Theorem C08_merge_compact_latest_wins :
  forall tables : list table, Forall tsorted tables ->
  scan_merged reduce_latest_wins (map as_stream tables) = (live (union_latest tables), None).
Proof. exact merge_compact_latest_wins. Qed.
Print Assumptions C08_merge_compact_latest_wins.

Theorem C08_merge_compact_skip_tombstones :
  forall tables : list table, Forall tsorted tables ->
  scan_merged reduce_latest_wins_skip_tombstones (map as_stream tables) = (live_nonempty (union_latest tables), None).
Proof. exact merge_compact_skip_tombstones. Qed.
Print Assumptions C08_merge_compact_skip_tombstones.

(* the union is ascending with each key once, and its value is that of the newest table holding the key *)
Theorem C08_union_is_latest_wins :
  forall tables k, Forall tsorted tables ->
  tsorted (union_latest tables) /\ t_get k (union_latest tables) = newest_value k (rev tables).
Proof. intros tables k H. split; [exact (union_latest_sorted tables)|exact (union_latest_get tables k H)]. Qed.
Print Assumptions C08_union_is_latest_wins.

Theorem C08_no_cross_attribution :
  forall (tables : list table) k v, Forall tsorted tables ->
  In (k, v) (fst (scan_merged reduce_latest_wins (map as_stream tables))) ->
  exists t, In t tables /\ In (k, Some v) t.
Proof. exact no_cross_attribution. Qed.
Print Assumptions C08_no_cross_attribution.

Theorem C08_merge_disjoint_union :
  forall St (w : sink St) (tables : list table) (s : St),
  Forall tsorted tables -> disjoint_keys tables ->
  merge w (map as_stream tables) s = feed w s (union_latest tables).
Proof. exact @merge_disjoint_union. Qed.
Print Assumptions C08_merge_disjoint_union.

(* stacked reader over readers that answer like their tables (C03) *)
Theorem C08_super_get :
  forall rs (tables : list table) k, Forall tsorted tables ->
  Forall2 (fun r t => rd_get r k = tget_res t k) rs tables ->
  super_get rs k = tget_res (union_latest tables) k.
Proof. exact super_get_spec. Qed.
Print Assumptions C08_super_get.

Theorem C08_super_contains :
  forall rs (tables : list table) k, Forall tsorted tables ->
  Forall2 (fun r t => rd_contains r k = Ok (match t_get k t with Some _ => true | None => false end)) rs tables ->
  super_contains rs k = Ok (match t_get k (union_latest tables) with Some _ => true | None => false end).
Proof. exact super_contains_spec. Qed.
Print Assumptions C08_super_contains.

Theorem C08_super_scan :
  forall rs (tables : list table), Forall tsorted tables ->
  Forall2 (fun r t => rd_scan r = (t, None)) rs tables ->
  super_scan rs = (live (union_latest tables), None).
Proof. exact super_scan_spec. Qed.
Print Assumptions C08_super_scan.
