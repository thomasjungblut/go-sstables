(* every call program behaves as the reference map with tombstones; the raw size estimate is exact
   (hence never wraps); both flush variants hand the writer exactly the reference content. *)
From GoSST Require Import Base.Bytes Base.Order Struct.SkipList Struct.SkipListFacts Mem.MemStore.
From Coq Require Import Lia Sorting.Sorted.
Local Open Scope N_scope.

(* the reference: sorted; None = tombstone *)
Definition rmap := list (bytes * option bytes).

Fixpoint r_set (k : bytes) (v : option bytes) (l : rmap) : rmap :=
  match l with
  | [] => [(k, v)]
  | (k', v') :: r =>
      match bcmp k k' with
      | Lt => (k, v) :: l
      | Eq => (k, v) :: r
      | Gt => (k', v') :: r_set k v r
      end
  end.

Definition r_get (k : bytes) (l : rmap) : option (option bytes) := assoc bcmp k l.

Definition r_step (l : rmap) (o : msop) : rmap * msout :=
  match o with
  | OAdd k v =>
      match k, v with
      | None, _ => (l, RErr (Some KeyNil))
      | Some _, None => (l, RErr (Some ValueNil))
      | Some k', Some v' =>
          match r_get k' l with
          | Some (Some _) => (l, RErr (Some KeyAlreadyExists))
          | _ => (r_set k' (Some v') l, RErr None)
          end
      end
  | OUpsert k v =>
      match k, v with
      | None, _ => (l, RErr (Some KeyNil))
      | Some _, None => (l, RErr (Some ValueNil))
      | Some k', Some v' => (r_set k' (Some v') l, RErr None)
      end
  | ODelete k =>
      match r_get (key_of k) l with
      | None => (l, RErr (Some KeyNotFound))
      | Some _ => (r_set (key_of k) None l, RErr None)
      end
  | ODeleteIfExists k =>
      match r_get (key_of k) l with
      | None => (l, RErr None)
      | Some _ => (r_set (key_of k) None l, RErr None)
      end
  | OTombstone k => (r_set (key_of k) None l, RErr None)
  | OGet k =>
      (l, RGet match r_get (key_of k) l with
               | None => inr KeyNotFound
               | Some None => inr KeyTombstoned
               | Some (Some v) => inl v
               end)
  | OContains k => (l, RBool match r_get (key_of k) l with Some (Some _) => true | _ => false end)
  | OIsTombstoned k => (l, RBool match r_get (key_of k) l with Some None => true | _ => false end)
  | OSize => (l, RSize (length l))
  end.

Definition r_bytes (l : rmap) : N :=
  fold_right (fun kv acc => blen (fst kv) + olen (snd kv) + acc) 0 l.

Fixpoint r_run (l : rmap) (ops : list msop) : rmap * list (msout * N) :=
  match ops with
  | [] => (l, [])
  | o :: r =>
      let '(l', out) := r_step l o in
      let '(l'', outs) := r_run l' r in
      (l'', (out, r_bytes l') :: outs)
  end.

Fixpoint bounded (l : rmap) (ops : list msop) : Prop :=
  match ops with
  | [] => True
  | o :: r => r_bytes (fst (r_step l o)) < 18446744073709551616 /\ bounded (fst (r_step l o)) r
  end.

(* 2^64 under a name: the refinement proofs only ever need x < two64, and lia then sees an unknown
   instead of a 65-bit numeral in every hypothesis *)
Definition two64 : N := 18446744073709551616.

Lemma u64_sub_exact a b : b <= a -> a < two64 -> u64_sub a b = a - b.
Proof. unfold two64. intros Hb Ha. unfold u64_sub, u64. rewrite Z.mod_small by lia. lia. Qed.

Lemma u64_add_exact a b : a + b < two64 -> u64_add a b = a + b.
Proof. unfold two64. intros Hab. unfold u64_add, u64. rewrite Z.mod_small by lia. lia. Qed.

Lemma r_bytes_app l1 l2 : r_bytes (l1 ++ l2) = r_bytes l1 + r_bytes l2.
Proof.
  unfold r_bytes. induction l1 as [|kv l1 IH]; simpl; [reflexivity|]. rewrite IH. lia.
Qed.

Lemma r_set_skip k v (pre s : @sl bytes (option bytes)) :
  Forall (fun t => bcmp (tkey t) k = Lt) pre -> r_set k v (kvs (pre ++ s)) = kvs pre ++ r_set k v (kvs s).
Proof.
  unfold kvs. induction 1 as [|t pre Ht _ IH]; simpl; [reflexivity|].
  rewrite (bcmp_antisym (tkey t) k), Ht. simpl. rewrite IH. reflexivity.
Qed.

Lemma set_val_skip k v (pre s : @sl bytes (option bytes)) :
  Forall (fun t => bcmp (tkey t) k = Lt) pre -> set_val k v (pre ++ s) = pre ++ set_val k v s.
Proof.
  induction 1 as [|t pre Ht _ IH]; simpl; [reflexivity|].
  rewrite (bcmp_antisym (tkey t) k), Ht. simpl. rewrite IH. reflexivity.
Qed.

Lemma r_set_above k v (s : @sl bytes (option bytes)) :
  Forall (fun t => bcmp k (tkey t) = Lt) s -> r_set k v (kvs s) = (k, v) :: kvs s.
Proof. intros [|t r Ht _]; simpl; [|rewrite Ht]; reflexivity. Qed.

Definition Inv (s : memstore) (l : rmap) : Prop :=
  sorted bcmp (ms_list s) /\ heights_ok (ms_list s) /\ kvs (ms_list s) = l
  /\ ms_est s = r_bytes l /\ r_bytes l < two64.

Lemma Inv_empty : Inv ms_empty [].
Proof. repeat split; constructor. Qed.

Lemma lookup_ref k s l : Inv s l -> ms_lookup k s = r_get k l.
Proof. intros (Hs & Hh & <- & _). unfold ms_lookup, r_get. apply get_spec; auto using bcmp_laws. Qed.

Lemma Inv_size s l : Inv s l -> ms_size s = length l.
Proof. intros (_ & _ & <- & _). symmetry. apply map_length. Qed.

Lemma r_bytes_middle (pre r : @sl bytes (option bytes)) t :
  r_bytes (kvs (pre ++ t :: r))
  = r_bytes (kvs pre) + (blen (tkey t) + r_bytes (kvs r)) + olen (tval t).
Proof. rewrite kvs_app, r_bytes_app. cbn [kvs map r_bytes fold_right fst snd]. fold (kvs r). fold (r_bytes (kvs r)). lia. Qed.

Lemma put_present (pre r : @sl bytes (option bytes)) t v :
  Forall (fun x => bcmp (tkey x) (tkey t) = Lt) pre ->
  set_val (tkey t) v (pre ++ t :: r) = pre ++ mkTower (tkey t) v (th t) :: r
  /\ r_set (tkey t) v (kvs (pre ++ t :: r)) = kvs (pre ++ mkTower (tkey t) v (th t) :: r).
Proof.
  intros Hp. rewrite set_val_skip, r_set_skip, !kvs_app by exact Hp.
  cbn [set_val kvs map r_set tkey tval]. rewrite bcmp_refl. split; reflexivity.
Qed.

(* [rest] is the byte count without the old value.  The new state is given for any estimate [e] equal
   to the exact count, so that each caller only has to show, by lia, that its u64 expression is that
   number. *)
Lemma put_refines s l k v h :
  Inv s l -> (1 <= h)%nat -> r_bytes (r_set k v l) < two64 ->
  match r_get k l with
  | Some old =>
      exists rest, ms_est s = rest + olen old /\ r_bytes (r_set k v l) = rest + olen v /\
        forall e, e = rest + olen v -> Inv (mkMS (set_val k v (ms_list s)) e) (r_set k v l)
  | None =>
      exists m', insert bcmp k v h (ms_list s) = Some m' /\
        r_bytes (r_set k v l) = ms_est s + (blen k + olen v) /\
        forall e, e = ms_est s + (blen k + olen v) -> Inv (mkMS m' e) (r_set k v l)
  end.
Proof.
  destruct s as [m est]. intros (Hs & Hh & <- & He & _) H1 Hb. cbn [ms_list ms_est] in *. unfold r_get.
  destruct (locate bcmp bcmp_laws k m Hs) as (pre & s & Hm & _ & Hp & Hc).
  destruct (assoc bcmp k (kvs m)) as [old|] eqn:G.
  - destruct Hc as (t & r & -> & <- & <-). subst m.
    destruct (put_present pre r t v Hp) as (E1 & E2).
    pose proof (r_bytes_middle pre r t) as B1.
    pose proof (r_bytes_middle pre r (mkTower (tkey t) v (th t))) as B2. cbn [tkey tval] in B2.
    eexists. split; [rewrite He; exact B1|]. rewrite E2 in Hb. rewrite E1, E2. split; [exact B2|].
    intros e ->. repeat split; cbn [ms_list ms_est]; try assumption; [| |symmetry; exact B2].
    + apply (sorted_keys bcmp (pre ++ t :: r)); [rewrite !map_app|]; auto.
    + apply (heights_ths (pre ++ t :: r)); [rewrite !map_app|]; auto.
  - destruct (insert_split bcmp bcmp_laws k v h m Hs Hh H1 G)
      as (pre' & s' & Hm' & Hp' & Hgt & Hi & Hs' & Hh').
    eexists. split; [exact Hi|].
    assert (Hr : r_set k v (kvs m) = kvs (pre' ++ mkTower k v h :: s')).
    { rewrite Hm', r_set_skip, r_set_above by assumption. rewrite !kvs_app. reflexivity. }
    assert (Hbytes : r_bytes (kvs (pre' ++ mkTower k v h :: s')) = est + (blen k + olen v)).
    { rewrite He, Hm', r_bytes_middle, kvs_app, r_bytes_app. cbn [tkey tval]. lia. }
    rewrite Hr in Hb |- *. split; [exact Hbytes|]. intros e ->. repeat split; auto.
Qed.

Lemma upsert_refines flag k v h s l :
  Inv s l -> (1 <= h)%nat -> r_bytes (r_set k (Some v) l) < two64 ->
  (flag = true -> forall old, r_get k l <> Some (Some old)) ->
  snd (ms_upsert_internal (Some k) (Some v) flag h s) = None
  /\ Inv (fst (ms_upsert_internal (Some k) (Some v) flag h s)) (r_set k (Some v) l).
Proof.
  intros HI H1 Hb Hflag. pose proof (put_refines s l k (Some v) h HI H1 Hb) as P.
  unfold ms_upsert_internal. rewrite (lookup_ref k s l HI).
  destruct HI as (_ & _ & _ & He & Hlt). cbn [olen] in P.
  destruct (r_get k l) as [old|].
  - destruct P as (rest & Hr & Hn & HInv).
    assert (E : u64_add (u64_sub (ms_est s) (olen old)) (blen v) = rest + blen v)
      by (rewrite u64_sub_exact, u64_add_exact by lia; lia).
    destruct old as [old|], flag; try (split; [reflexivity|apply HInv, E]).
    destruct (Hflag eq_refl old eq_refl).
  - destruct P as (m' & -> & Hn & HInv). split; [reflexivity|]. apply HInv.
    rewrite (u64_add_exact (blen k)), u64_add_exact by lia. reflexivity.
Qed.

Lemma wrap_RErr (x : memstore * option mserr) e l' :
  snd x = e /\ Inv (fst x) l' ->
  snd (let '(s', e) := x in (s', RErr e)) = RErr e
  /\ Inv (fst (let '(s', e) := x in (s', RErr e))) l'.
Proof. destruct x as [s' e']. cbn. intros [-> HI]. auto. Qed.

(* Delete and DeleteIfExists differ in what they answer for an absent key *)
Lemma delete_refines (flag : bool) k s l :
  Inv s l ->
  let ref := match r_get (key_of k) l with
             | None => (l, RErr (if flag then Some KeyNotFound else None))
             | Some _ => (r_set (key_of k) None l, RErr None)
             end in
  r_bytes (fst ref) < two64 ->
  snd (let '(s', e) := ms_delete_internal k flag s in (s', RErr e)) = snd ref
  /\ Inv (fst (let '(s', e) := ms_delete_internal k flag s in (s', RErr e))) (fst ref).
Proof.
  intros HI ref Hb. subst ref. unfold ms_delete_internal. rewrite (lookup_ref _ s l HI).
  destruct (r_get (key_of k) l) as [old|] eqn:G; cbn [fst snd] in *;
    [|split; [reflexivity|exact HI]].
  pose proof (put_refines s l (key_of k) None 1 HI (le_n 1) Hb) as P. rewrite G in P.
  destruct HI as (_ & _ & _ & He & Hlt). destruct P as (rest & Hr & Hn & HInv).
  split; [reflexivity|]. apply HInv. rewrite u64_sub_exact by lia. cbn [olen]. lia.
Qed.

Lemma tombstone_refines k h s l :
  Inv s l -> (1 <= h)%nat -> r_bytes (r_set (key_of k) None l) < two64 ->
  snd (ms_tombstone k h s) = None /\ Inv (fst (ms_tombstone k h s)) (r_set (key_of k) None l).
Proof.
  intros HI H1 Hb. pose proof (put_refines s l (key_of k) None h HI H1 Hb) as P.
  unfold ms_tombstone. rewrite (lookup_ref _ s l HI).
  destruct HI as (_ & _ & _ & He & Hlt). cbn [olen] in P.
  destruct (r_get (key_of k) l) as [old|].
  - destruct P as (rest & Hr & Hn & HInv).
    split; [reflexivity|]. apply HInv. rewrite u64_sub_exact by lia. lia.
  - destruct P as (m' & -> & Hn & HInv). split; [reflexivity|]. apply HInv.
    rewrite u64_add_exact by lia. lia.
Qed.

Lemma step_refines h s l o :
  Inv s l -> (1 <= h)%nat -> r_bytes (fst (r_step l o)) < two64 ->
  snd (ms_step h s o) = snd (r_step l o) /\ Inv (fst (ms_step h s o)) (fst (r_step l o)).
Proof.
  intros HI H1 Hb.
  destruct o as [[k|] [v|]|[k|] [v|]|k|k|k|k|k|k|]; cbn [ms_step r_step] in *;
    try (split; [reflexivity|exact HI]).
  - (* Add *)
    destruct (r_get k l) as [[old|]|] eqn:G; cbn [fst snd] in *; apply wrap_RErr.
    + unfold ms_upsert_internal. rewrite (lookup_ref k s l HI), G. auto.
    + apply upsert_refines; auto. congruence.
    + apply upsert_refines; auto. congruence.
  - (* Upsert *) apply wrap_RErr, upsert_refines; auto. discriminate.
  - (* Delete *) apply delete_refines; assumption.
  - (* DeleteIfExists *) apply delete_refines; assumption.
  - (* Tombstone *) apply wrap_RErr, tombstone_refines; auto.
  - (* Get *) unfold ms_get. rewrite (lookup_ref _ s l HI). auto.
  - (* Contains *) unfold ms_contains. rewrite (lookup_ref _ s l HI). auto.
  - (* IsTombstoned *) unfold ms_is_tombstoned. rewrite (lookup_ref _ s l HI). auto.
  - (* Size *) rewrite (Inv_size s l HI). auto.
Qed.

Lemma run_refines ops : forall hs s l,
  Forall (fun h => 1 <= h)%nat hs -> Inv s l -> bounded l ops ->
  snd (ms_run hs s ops) = snd (r_run l ops) /\ Inv (fst (ms_run hs s ops)) (fst (r_run l ops)).
Proof.
  induction ops as [|o r IH]; intros hs s l Hhs HI Hb; simpl.
  - split; [reflexivity|exact HI].
  - destruct Hb as [Hb1 Hb2].
    assert (Hh : (1 <= hd 1 hs)%nat) by (destruct Hhs; simpl; auto).
    assert (Ht : Forall (fun h => 1 <= h)%nat (tl hs)) by (destruct Hhs; simpl; auto).
    pose proof (step_refines (hd 1%nat hs) s l o HI Hh Hb1) as [Hout HI'].
    destruct (ms_step (hd 1%nat hs) s o) as [s' out].
    destruct (r_step l o) as [l' rout]. simpl in Hout, HI', Hb2.
    pose proof (IH (tl hs) s' l' Ht HI' Hb2) as [Houts HI''].
    destruct (ms_run (tl hs) s' r) as [s'' outs].
    destruct (r_run l' r) as [l'' routs]. simpl in *.
    split; [|exact HI''].
    destruct HI' as (_ & _ & _ & He & _). rewrite Hout, He, Houts. reflexivity.
Qed.

Theorem memstore_refines_ref (hs : list nat) (ops : list msop) :
  Forall (fun h => 1 <= h)%nat hs ->
  bounded [] ops ->
  let '(s, outs) := ms_run hs ms_empty ops in
  let '(l, routs) := r_run [] ops in
  outs = routs
  /\ kvs (ms_list s) = l
  /\ ms_iter s = l
  /\ ms_size s = length l
  /\ StronglySorted (fun a b => bcmp (fst a) (fst b) = Lt) l
  /\ ms_est s = r_bytes l.
Proof.
  intros Hhs Hb.
  pose proof (run_refines ops hs ms_empty [] Hhs Inv_empty Hb) as [Houts HI].
  destruct (ms_run hs ms_empty ops) as [s outs].
  destruct (r_run [] ops) as [l routs]. simpl in Houts, HI.
  pose proof (Inv_size s l HI) as Hsz. destruct HI as (Hs & _ & <- & He & _).
  repeat split; try assumption; [apply scan_all_spec | apply kvs_sorted, Hs].
Qed.

Corollary size_estimate_exact (hs : list nat) (ops : list msop) :
  Forall (fun h => 1 <= h)%nat hs ->
  bounded [] ops ->
  map snd (snd (ms_run hs ms_empty ops)) = map snd (snd (r_run [] ops)).
Proof.
  intros Hhs Hb.
  pose proof (run_refines ops hs ms_empty [] Hhs Inv_empty Hb) as [Houts _].
  rewrite Houts. reflexivity.
Qed.

Definition live (kv : bytes * option bytes) : bool := match snd kv with Some _ => true | None => false end.

Theorem flush_equals_ref (hs : list nat) (ops : list msop) :
  Forall (fun h => 1 <= h)%nat hs ->
  bounded [] ops ->
  let s := fst (ms_run hs ms_empty ops) in
  let l := fst (r_run [] ops) in
  ms_flush_pairs true s = l /\ ms_flush_pairs false s = filter live l.
Proof.
  intros Hhs Hb.
  pose proof (run_refines ops hs ms_empty [] Hhs Inv_empty Hb) as [_ HI].
  destruct HI as (_ & _ & Hk & _).
  unfold ms_flush_pairs, ms_iter. rewrite scan_all_spec, Hk. split; reflexivity.
Qed.

(* non-vacuity: a concrete program incl. re-adding a tombstoned key and deleting an absent one *)
Example memstore_example :
  let ops := [OAdd (Some [1]) (Some [7; 7]); ODelete (Some [1]); OAdd (Some [1]) (Some []);
              ODelete (Some [9]); OTombstone (Some [5]); OGet (Some [5]); OSize] in
  Forall (fun h => 1 <= h)%nat [3; 1; 2]%nat /\ bounded [] ops
  /\ snd (ms_run [3; 1; 2]%nat ms_empty ops) = snd (r_run [] ops)
  /\ fst (r_run [] ops) = [([1], Some []); ([5], None)].
Proof.
  split; [repeat constructor|].
  split; [vm_compute; repeat split|].
  split; vm_compute; reflexivity.
Qed.

Print Assumptions memstore_refines_ref.
Print Assumptions size_estimate_exact.
Print Assumptions flush_equals_ref.
Print Assumptions memstore_example.
