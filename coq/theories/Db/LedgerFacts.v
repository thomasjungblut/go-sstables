(* C19 over the resource ledger (Db/Ledger.v): the ledger is read as a multiset (lists up to Permutation);
   every operation's events are a triple [trip m es m'] from [held] before to [held] after, whence the
   exact ledger after every step; peaks inside a step are bounded by counting acquisitions. *)
From Coq Require Import Lia Permutation.
From GoSST Require Import Base.Bytes Base.ListFacts Db.Logical Db.LogicalFacts Db.Ledger.
Local Open Scope N_scope.

(* what an open database holds between two operations *)
Definition held (compactor : bool) (s : db) : ledger :=
  map RMap (gens s) ++ RWal :: goroutines compactor.

Definition opened (compactor : bool) : option ledger := apply_evs (Some []) (open_events compactor db_empty).

Lemma res_eqb_true a b : res_eqb a b = true <-> a = b.
Proof.
  split.
  - destruct a, b; simpl; intros H; try discriminate; try reflexivity;
      apply N.eqb_eq in H; subst; reflexivity.
  - intros ->. destruct b; simpl; try reflexivity; apply N.eqb_refl.
Qed.

Lemma remove1_in r l : In r l -> exists l', remove1 r l = Some l' /\ Permutation l (r :: l').
Proof.
  induction l as [|x t IH]; intros Hin; [destruct Hin|]. simpl.
  destruct (res_eqb r x) eqn:E.
  - apply res_eqb_true in E. subst x. exists t. split; reflexivity.
  - destruct Hin as [Hx|Hin].
    + subst x. assert (res_eqb r r = true) as E' by (apply res_eqb_true; reflexivity). congruence.
    + destruct (IH Hin) as (t' & Ht & Hp). rewrite Ht. exists (x :: t'). split; [reflexivity|].
      rewrite Hp. apply perm_swap.
Qed.

Lemma remove1_length r l : forall l', remove1 r l = Some l' -> length l = S (length l').
Proof.
  induction l as [|x t IH]; intros l' H; simpl in H; [discriminate|].
  destruct (res_eqb r x).
  - inversion H; subst. reflexivity.
  - destruct (remove1 r t) as [t'|]; [|discriminate]. inversion H; subst. simpl. rewrite (IH t' eq_refl). reflexivity.
Qed.

Lemma apply_evs_none es : apply_evs None es = None.
Proof. induction es as [|e es IH]; [reflexivity|exact IH]. Qed.

Definition lperm (ol : option ledger) (m : ledger) : Prop := exists l, ol = Some l /\ Permutation l m.

Lemma lperm_perm ol m m' : lperm ol m -> Permutation m m' -> lperm ol m'.
Proof. intros (l & Hl & Hp) Hm. exists l. split; [exact Hl|]. rewrite Hp. exact Hm. Qed.

Lemma lperm_nil ol : lperm ol [] -> ol = Some [].
Proof. intros (l & -> & Hp). apply Permutation_sym, Permutation_nil in Hp. subst l. reflexivity. Qed.

Lemma lperm_acq ol m r : lperm ol m -> lperm (apply_ev ol (Acq r)) (r :: m).
Proof. intros (l & -> & Hp). exists (r :: l). split; [reflexivity|]. apply perm_skip. exact Hp. Qed.

Lemma lperm_rel ol m r : lperm ol (r :: m) -> lperm (apply_ev ol (Rel r)) m.
Proof.
  intros (l & -> & Hp). simpl.
  assert (In r l) as Hin by (eapply Permutation_in; [symmetry; exact Hp|left; reflexivity]).
  destruct (remove1_in r l Hin) as (l' & Hr & Hp'). rewrite Hr. exists l'. split; [reflexivity|].
  apply Permutation_cons_inv with (a := r). rewrite <- Hp'. exact Hp.
Qed.

Definition trip (m : ledger) (es : list lev) (m' : ledger) : Prop :=
  forall ol, lperm ol m -> lperm (apply_evs ol es) m'.

Lemma trip_nil m : trip m [] m.
Proof. intros ol H. exact H. Qed.

Lemma trip_app m m1 m2 a b : trip m a m1 -> trip m1 b m2 -> trip m (a ++ b) m2.
Proof. intros Ha Hb ol H. unfold apply_evs. rewrite fold_left_app. apply Hb, Ha, H. Qed.

Lemma trip_perm_pre m m0 m' es : Permutation m m0 -> trip m0 es m' -> trip m es m'.
Proof. intros Hp Ht ol H. apply Ht. eapply lperm_perm; eassumption. Qed.

Lemma trip_perm_post m m0 m' es : trip m es m0 -> Permutation m0 m' -> trip m es m'.
Proof. intros Ht Hp ol H. eapply lperm_perm; [apply Ht, H|exact Hp]. Qed.

Lemma trip_acqs m rs : trip m (map Acq rs) (rs ++ m).
Proof.
  revert m. induction rs as [|r rs IH]; intros m ol H; [exact H|].
  change (lperm (apply_evs (apply_ev ol (Acq r)) (map Acq rs)) ((r :: rs) ++ m)).
  eapply lperm_perm; [apply (IH (r :: m)), lperm_acq, H|].
  symmetry. apply Permutation_middle.
Qed.

Lemma trip_rels_front rs : forall m, trip (rs ++ m) (map Rel rs) m.
Proof.
  induction rs as [|r rs IH]; intros m ol H; [exact H|].
  change (lperm (apply_evs (apply_ev ol (Rel r)) (map Rel rs)) m).
  apply IH, lperm_rel. exact H.
Qed.

Lemma trip_rels_mid a rs m : trip (a ++ rs ++ m) (map Rel rs) (a ++ m).
Proof. eapply trip_perm_pre; [apply Permutation_app_swap_app|apply trip_rels_front]. Qed.

Lemma trip_rels_all rs : trip rs (map Rel rs) [].
Proof. rewrite <- (app_nil_r rs) at 1. apply trip_rels_front. Qed.

Lemma trip_acqs_all rs : trip [] (map Acq rs) rs.
Proof. pose proof (trip_acqs [] rs) as H. rewrite app_nil_r in H. exact H. Qed.

Lemma trip_some m es m' (l : ledger) : trip m es m' -> Permutation l m ->
  exists l', apply_evs (Some l) es = Some l' /\ Permutation l' m'.
Proof. intros Ht Hp. apply (Ht (Some l)). exists l. split; [reflexivity|exact Hp]. Qed.

Lemma held_tables b s s' : d_tables s = d_tables s' -> held b s = held b s'.
Proof. intros H. unfold held, gens. rewrite H. reflexivity. Qed.

Lemma held_perm b s : Permutation (held b s) (goroutines b ++ [RWal] ++ map RMap (gens s)).
Proof.
  unfold held. etransitivity; [apply Permutation_app_comm|].
  apply (Permutation_middle (goroutines b) (map RMap (gens s)) RWal).
Qed.

Lemma held_length b s : (length (held b s) <= length (d_tables s) + 3)%nat.
Proof. unfold held, gens. rewrite app_length, !map_length. destruct b; simpl; lia. Qed.

Lemma trip_writer m : trip m writer_events m.
Proof.
  apply (trip_app m ([RTmpFile 0; RTmpFile 1] ++ m) m (map Acq [RTmpFile 0; RTmpFile 1]) (map Rel [RTmpFile 0; RTmpFile 1])).
  - apply trip_acqs.
  - apply (trip_rels_front [RTmpFile 0; RTmpFile 1] m).
Qed.

Lemma trip_rotate b s : trip (held b s) (rotate_events s) (held b (db_rotate s)).
Proof.
  unfold rotate_events. apply trip_app with (m1 := held b s).
  - unfold held.
    apply (trip_app _ (map RMap (gens s) ++ goroutines b) _ (map Rel [RWal]) (map Acq [RWal])).
    + apply (trip_rels_mid (map RMap (gens s)) [RWal] (goroutines b)).
    + eapply trip_perm_post; [apply trip_acqs|]. simpl. apply Permutation_middle.
  - unfold flush_events, db_rotate. destruct (d_wr s) as [|x w].
    + apply trip_nil.
    + apply trip_app with (m1 := held b s); [apply trip_writer|].
      eapply trip_perm_post; [apply (trip_acqs _ [RMap (d_gen s + 1)])|].
      unfold held, gens. cbn [d_tables]. rewrite !map_app, <- app_assoc. simpl. apply Permutation_middle.
Qed.

Definition tmps (sel : list N) : list res := flat_map (fun g => [RTmpMap g; RTmpScan g]) sel.
Definition tmps_rel_order (sel : list N) : list res := flat_map (fun g => [RTmpScan g; RTmpMap g]) sel.

Lemma tmps_acq sel : flat_map (fun g => [Acq (RTmpMap g); Acq (RTmpScan g)]) sel = map Acq (tmps sel).
Proof. induction sel as [|g sel IH]; simpl; [reflexivity|]. rewrite IH. reflexivity. Qed.

Lemma tmps_rel sel : flat_map (fun g => [Rel (RTmpScan g); Rel (RTmpMap g)]) sel = map Rel (tmps_rel_order sel).
Proof. induction sel as [|g sel IH]; simpl; [reflexivity|]. rewrite IH. reflexivity. Qed.

Lemma tmps_perm sel : Permutation (tmps sel) (tmps_rel_order sel).
Proof. induction sel as [|g sel IH]; simpl; [reflexivity|]. rewrite IH. apply perm_swap. Qed.

Lemma tmps_length sel : length (tmps sel) = (2 * length sel)%nat.
Proof. induction sel as [|g sel IH]; simpl; [reflexivity|]. rewrite IH. lia. Qed.

Definition run_events (sel : list N) (g0 : N) : list lev :=
  [Acq (RTmpFile 0); Acq (RTmpFile 1)]
  ++ flat_map (fun g => [Acq (RTmpMap g); Acq (RTmpScan g)]) sel
  ++ [Rel (RTmpFile 0); Rel (RTmpFile 1)]
  ++ flat_map (fun g => [Rel (RTmpScan g); Rel (RTmpMap g)]) sel
  ++ map (fun g => Rel (RMap g)) sel
  ++ [Acq (RMap g0)].

Lemma db_compact_cases c sizes s :
  (db_compact c sizes s = (s, []) /\ compact_events c sizes s = [])
  \/ exists pre g t run post m,
       d_tables s = pre ++ ((g, t) :: run) ++ post
       /\ db_compact c sizes s = (mkDb (pre ++ (g, m) :: post) (d_rd s) (d_wr s) (d_gen s), g :: map fst run)
       /\ compact_events c sizes s = run_events (g :: map fst run) g.
Proof.
  pose proof (db_compact_eq c sizes s) as E. cbv zeta in E. revert E.
  set (sel := selection c sizes (d_tables s)).
  destruct (sel_seg sel (selection_seg _ _ _) (d_tables s) (merged_of sel (d_tables s))) as (pre & post & Hts & -> & _).
  revert Hts. destruct (N.leb_spec (N.of_nat (length (select_by sel (d_tables s)))) (c_threshold c)) as [_|Hgt];
    intros Hts E; [left; split; [exact E|unfold compact_events; rewrite E; reflexivity]|right].
  revert Hts E. destruct (select_by sel (d_tables s)) as [|[g t] run]; [simpl in Hgt; lia|]. intros Hts E.
  exists pre, g, t, run, post, (merged_of sel (d_tables s)).
  split; [exact Hts|]. split; [exact E|unfold compact_events; rewrite E; reflexivity].
Qed.

Lemma trip_run sel g0 a b rest :
  trip (map RMap a ++ map RMap sel ++ map RMap b ++ rest) (run_events sel g0)
       (map RMap a ++ RMap g0 :: map RMap b ++ rest).
Proof.
  unfold run_events. set (L := map RMap a ++ map RMap sel ++ map RMap b ++ rest).
  rewrite tmps_acq, tmps_rel, <- (map_map RMap Rel).
  apply trip_app with (m1 := [RTmpFile 0; RTmpFile 1] ++ L).
  { apply (trip_acqs L [RTmpFile 0; RTmpFile 1]). }
  apply trip_app with (m1 := tmps sel ++ [RTmpFile 0; RTmpFile 1] ++ L).
  { apply trip_acqs. }
  apply trip_app with (m1 := tmps sel ++ L).
  { apply (trip_rels_mid (tmps sel) [RTmpFile 0; RTmpFile 1] L). }
  apply trip_app with (m1 := L).
  { eapply trip_perm_pre; [apply Permutation_app_tail, tmps_perm|]. apply trip_rels_front. }
  apply trip_app with (m1 := map RMap a ++ map RMap b ++ rest).
  { apply trip_rels_mid. }
  eapply trip_perm_post; [apply (trip_acqs _ [RMap g0])|]. simpl. apply Permutation_middle.
Qed.

Lemma trip_compact b c sizes s :
  trip (held b s) (compact_events c sizes s) (held b (fst (db_compact c sizes s))).
Proof.
  destruct (db_compact_cases c sizes s) as [[E ->]|(pre & g & t & run & post & m & Hts & E & ->)]; rewrite E.
  - apply trip_nil.
  - cbn [fst].
    eapply trip_perm_pre;
      [|eapply trip_perm_post;
         [apply (trip_run (g :: map fst run) g (map fst pre) (map fst post) (RWal :: goroutines b))|]].
    + unfold held, gens. rewrite Hts, !map_app, <- !app_assoc. reflexivity.
    + unfold held, gens. cbn [d_tables]. rewrite !map_app, <- app_assoc. reflexivity.
Qed.

Lemma trip_close b s : trip (held b s) (close_events b s) [].
Proof.
  unfold close_events. apply trip_app with (m1 := held b (db_rotate s)); [apply trip_rotate|].
  eapply trip_perm_pre; [apply held_perm|].
  rewrite <- (map_map RMap Rel).
  apply trip_app with (m1 := [RWal] ++ map RMap (gens (db_rotate s))); [apply trip_rels_front|].
  apply trip_app with (m1 := map RMap (gens (db_rotate s))); [apply (trip_rels_front [RWal])|].
  apply trip_rels_all.
Qed.

Lemma trip_open b s : trip [] (open_events b s) (held b s).
Proof.
  unfold open_events. rewrite <- (map_map RMap Acq).
  eapply trip_perm_post; [|symmetry; apply held_perm].
  apply trip_app with (m1 := map RMap (gens s)); [apply trip_acqs_all|].
  apply trip_app with (m1 := [RWal] ++ map RMap (gens s)); [apply (trip_acqs _ [RWal])|].
  apply trip_acqs.
Qed.

Lemma gens_reopen s : gens (db_reopen s) = gens (db_rotate s).
Proof. reflexivity. Qed.

Lemma trip_step b s st : trip (held b s) (step_events b s st) (held b (fst (db_step s st))).
Proof.
  destruct st as [k v|k|k| |c sizes|].
  - replace (held b (fst (db_step s (SPut k v)))) with (held b s); [apply trip_nil|].
    apply held_tables. simpl. rewrite fst_let, db_put_eq. destruct (valid_put k v); reflexivity.
  - apply trip_nil.
  - apply trip_nil.
  - apply trip_rotate.
  - simpl. rewrite fst_let. apply trip_compact.
  - cbn [step_events db_step fst]. apply trip_app with (m1 := []); [apply trip_close|].
    apply trip_open.
Qed.

Lemma lrun_exact b steps : forall s ol, lperm ol (held b s) ->
  Forall (fun p => lperm (snd p) (held b (fst p))) (lrun b s ol steps).
Proof.
  induction steps as [|st steps IH]; intros s ol H; cbn [lrun]; [constructor|].
  assert (lperm (apply_evs ol (step_events b s st)) (held b (fst (db_step s st)))) as H' by (apply trip_step, H).
  constructor; [exact H'|]. apply IH. exact H'.
Qed.

Lemma opened_held b : lperm (opened b) (held b db_empty).
Proof. apply trip_open. exists []. split; reflexivity. Qed.

(* snd p = Some l: nothing was released twice *)
Theorem ledger_exact (compactor : bool) (steps : list dstep) :
  Forall (fun p => exists l, snd p = Some l /\ Permutation l (held compactor (fst p)))
         (lrun compactor db_empty (opened compactor) steps).
Proof. apply (lrun_exact compactor steps db_empty (opened compactor)), opened_held. Qed.

Lemma count_perm p l l' : Permutation l l' -> count p l = count p l'.
Proof.
  intros H. unfold count. f_equal.
  induction H as [|x l l' H IH|x y l|l l' l'' H1 IH1 H2 IH2]; simpl.
  - reflexivity.
  - destruct (p x); simpl; rewrite IH; reflexivity.
  - destruct (p x), (p y); reflexivity.
  - rewrite IH1. exact IH2.
Qed.

Lemma held_counts b s :
  count is_map (held b s) = N.of_nat (length (d_tables s))
  /\ count is_fd (held b s) = 1
  /\ count is_gor (held b s) = (if b then 2 else 1).
Proof.
  unfold count, held. rewrite !filter_app.
  rewrite (filter_all_true is_map), (filter_all_false is_fd), (filter_all_false is_gor)
    by (rewrite Forall_map; apply Forall_forall; reflexivity).
  rewrite app_length. unfold gens. rewrite !map_length.
  destruct b; simpl; repeat split; try reflexivity; f_equal; lia.
Qed.

(* hence the counts the harness measures *)
Theorem resources_bounded (compactor : bool) (steps : list dstep) :
  Forall (fun p => exists l, snd p = Some l
                    /\ count is_map l = N.of_nat (length (d_tables (fst p)))
                    /\ count is_fd l = 1
                    /\ count is_gor l = (if compactor then 2 else 1))
         (lrun compactor db_empty (opened compactor) steps).
Proof.
  eapply Forall_impl; [|apply ledger_exact].
  intros p (l & Hs & Hp). exists l. split; [exact Hs|].
  rewrite !(count_perm _ _ _ Hp). apply held_counts.
Qed.

(* a trace that ends well never failed, and grows by at most its acquisitions *)
Definition is_acq (e : lev) : bool := match e with Acq _ => true | Rel _ => false end.
Definition nacq (es : list lev) : nat := length (filter is_acq es).

Lemma nacq_app a b : nacq (a ++ b) = (nacq a + nacq b)%nat.
Proof. unfold nacq. rewrite filter_app, app_length. reflexivity. Qed.

Lemma nacq_map_acq rs : nacq (map Acq rs) = length rs.
Proof. unfold nacq. induction rs as [|r rs IH]; simpl; [reflexivity|]. rewrite IH. reflexivity. Qed.

Lemma nacq_map_rel rs : nacq (map Rel rs) = 0%nat.
Proof. unfold nacq. induction rs as [|r rs IH]; simpl; [reflexivity|exact IH]. Qed.

Definition ok_trace (B : nat) (ol : option ledger) (es : list lev) : Prop :=
  Forall (fun x => exists l', x = Some l' /\ (length l' <= B)%nat) (trace_evs ol es).

Lemma trace_evs_app a : forall ol b,
  trace_evs ol (a ++ b) = trace_evs ol a ++ trace_evs (apply_evs ol a) b.
Proof.
  induction a as [|e a IH]; intros ol b; [reflexivity|].
  cbn [trace_evs app]. rewrite IH. reflexivity.
Qed.

Lemma ok_trace_app B ol a b : ok_trace B ol a -> ok_trace B (apply_evs ol a) b -> ok_trace B ol (a ++ b).
Proof. intros Ha Hb. unfold ok_trace. rewrite trace_evs_app. apply Forall_app. split; assumption. Qed.

Lemma ok_trace_crude B es : forall l,
  apply_evs (Some l) es <> None -> (length l + nacq es <= B)%nat -> ok_trace B (Some l) es.
Proof.
  induction es as [|e es IH]; intros l Hf Hb; [constructor|].
  unfold ok_trace. cbn [trace_evs].
  change (apply_evs (Some l) (e :: es)) with (apply_evs (apply_ev (Some l) e) es) in Hf.
  destruct (apply_ev (Some l) e) as [l1|] eqn:E1; [|elim Hf; apply apply_evs_none].
  assert (length l1 + nacq es <= B)%nat as Hb1.
  { unfold nacq in *. destruct e as [r|r]; simpl in E1, Hb.
    - inversion E1; subst. simpl. lia.
    - apply remove1_length in E1. lia. }
  constructor; [exists l1; split; [reflexivity|lia]|]. exact (IH l1 Hf Hb1).
Qed.

Lemma ok_trace_trip B m es m' l : trip m es m' -> Permutation l m ->
  (length m + nacq es <= B)%nat -> ok_trace B (Some l) es.
Proof.
  intros Ht Hp Hb. destruct (trip_some m es m' l Ht Hp) as (l' & Hl' & _).
  apply ok_trace_crude; [rewrite Hl'; discriminate|]. rewrite (Permutation_length Hp). exact Hb.
Qed.

Lemma nacq_rotate s : (nacq (rotate_events s) <= 4)%nat.
Proof. unfold rotate_events, flush_events. destruct (d_wr s); cbv; lia. Qed.

Lemma nacq_run sel g0 : nacq (run_events sel g0) = (2 * length sel + 3)%nat.
Proof.
  unfold run_events. rewrite tmps_acq, tmps_rel, <- (map_map RMap Rel).
  rewrite !nacq_app, nacq_map_acq, !nacq_map_rel, tmps_length. cbv [nacq filter is_acq length]. lia.
Qed.

Lemma nacq_compact c sizes s : (nacq (compact_events c sizes s) <= 2 * length (d_tables s) + 3)%nat.
Proof.
  destruct (db_compact_cases c sizes s) as [[_ ->]|(pre & g & t & run & post & m & Hts & _ & ->)].
  - cbv [nacq filter length]. lia.
  - rewrite nacq_run, Hts.
    cbn [length]. rewrite !app_length, map_length. cbn [length]. lia.
Qed.

Lemma nacq_close b s : (nacq (close_events b s) <= 4)%nat.
Proof.
  unfold close_events. rewrite <- (map_map RMap Rel), !nacq_app, !nacq_map_rel.
  pose proof (nacq_rotate s) as H. change (nacq [Rel RWal]) with 0%nat. lia.
Qed.

Lemma nacq_open b s : (nacq (open_events b s) <= length (d_tables s) + 3)%nat.
Proof.
  unfold open_events. rewrite <- (map_map RMap Acq), !nacq_app, !nacq_map_acq.
  unfold gens. rewrite !map_length. change (nacq [Acq RWal]) with 1%nat. destruct b; simpl; lia.
Qed.

(* inside a step, while a flush or a compaction is at work *)
Theorem peak_bounded (compactor : bool) (s : db) (l : ledger) (st : dstep) :
  Permutation l (held compactor s) ->
  Forall (fun x => exists l', x = Some l' /\
                   (length l' <= 3 * Nat.max (length (d_tables s)) (length (d_tables (fst (db_step s st)))) + 8)%nat)
         (trace_evs (Some l) (step_events compactor s st)).
Proof.
  (* with n tables, held has at most n + 3 entries; on top of it a compaction acquires at most 2n + 3
     (3n + 6 in all), a rotation or Close at most 4 (n + 7); Open starts from nothing.  The count gives
     3n + 7; 8 is the bound of the statement *)
  intros Hl. pose proof (held_length compactor s) as Hlen.
  destruct st as [k v|k|k| |c sizes|].
  1-3: constructor.
  - apply (ok_trace_trip _ _ _ _ _ (trip_rotate compactor s) Hl).
    pose proof (nacq_rotate s). lia.
  - apply (ok_trace_trip _ _ _ _ _ (trip_compact compactor c sizes s) Hl).
    pose proof (nacq_compact c sizes s). lia.
  - cbn [step_events db_step fst]. apply ok_trace_app.
    + apply (ok_trace_trip _ _ _ _ _ (trip_close compactor s) Hl).
      pose proof (nacq_close compactor s). lia.
    + assert (apply_evs (Some l) (close_events compactor s) = Some []) as ->
        by (apply lperm_nil, trip_close; exists l; auto).
      apply (ok_trace_trip _ _ _ _ _ (trip_open compactor (db_reopen s)) (Permutation_refl [])).
      pose proof (nacq_open compactor (db_reopen s)). simpl length at 1. lia.
Qed.

Theorem close_releases_all (compactor : bool) (steps : list dstep) :
  session_end compactor steps = Some [].
Proof.
  unfold session_end.
  assert (lperm (snd (final compactor steps)) (held compactor (fst (final compactor steps)))) as H.
  { unfold final. apply (last_Forall (fun p => lperm (snd p) (held compactor (fst p)))).
    - apply lrun_exact, opened_held.
    - apply opened_held. }
  destruct (final compactor steps) as [s ol]. cbn [fst snd] in H.
  apply lperm_nil, (trip_close compactor s ol H).
Qed.

(* table reader: Close alone releases its mapping and every scanner created from it, complete or
   abandoned *)
Theorem reader_close_releases_owned (ops : list rop) :
  filter r_owned_by_reader (snd (r_close_reader (fold_left r_step ops r_open))) = [].
Proof.
  apply filter_all_false, Forall_forall. intros r Hr. apply filter_In in Hr. apply negb_true_iff, Hr.
Qed.

Theorem reader_close_releases_all (ops : list rop) :
  snd (r_close_reader (r_close_handles (fold_left r_step ops r_open))) = [].
Proof.
  apply filter_all_false, Forall_forall. intros r Hr. apply filter_In in Hr. apply negb_false_iff, Hr.
Qed.

(* a session with a compaction that really merges *)
Example ledger_session :
  let steps := [SPut (Some [1]) (Some [1]); SRotate; SPut (Some [2]) (Some [2]); SRotate;
                SCompact (mkCfg 1 1000 100) [10; 10]; SReopen; SDelete (Some [1]); SRotate] in
  map (fun p => option_map (fun l => (count is_map l, count is_fd l)) (snd p)) (lrun true db_empty (opened true) steps)
  = [Some (0, 1); Some (1, 1); Some (1, 1); Some (2, 1); Some (1, 1); Some (1, 1); Some (1, 1); Some (2, 1)]
  /\ session_end true steps = Some [].
Proof. intros steps. split; vm_compute; reflexivity. Qed.

Print Assumptions ledger_exact.
Print Assumptions resources_bounded.
Print Assumptions peak_bounded.
Print Assumptions close_releases_all.
Print Assumptions reader_close_releases_owned.
Print Assumptions reader_close_releases_all.
Print Assumptions ledger_session.
