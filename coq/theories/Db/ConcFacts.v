(* C05 over the concurrent machine (Db/Conc.v): a forward simulation of the atomic map object in which
   Put / Delete take effect at their write-locked body and Get at its memstore read (lin_sim for the
   history, run_sim for the linearization points and the final state). *)
From Coq Require Import Lia String.
From GoSST Require Import Base.Bytes Base.ListFacts Db.Logical Db.LogicalFacts Db.Conc.
From GoSSTGen Require Import FactsCode.
Local Open Scope N_scope.

(* the lock discipline the action granularity of Conc.v relies on, as read off the Go syntax trees
   of /repo (gen/FactsCode.v) *)
Lemma lock_facts :
  put_takes_write_lock = true /\ delete_takes_write_lock = true /\ get_takes_read_lock = true /\
  get_tables_before_memstore = Some true /\ reflect_takes_db_lock_first = Some true /\
  (* the memstore pair is read by Get and written by Put/Delete and recovery only; it is swapped only by a
     rotation, which only Put and Close (both under the write lock) and recovery (under Open's lock) start:
     the flusher and the compactor never touch it *)
  memstore_users = "DeleteBytes,GetBytes,PutBytes,replayAndSetupWriteAheadLog,swapMemstore"%string /\
  memstore_swappers = "replayAndSetupWriteAheadLog,rotateWalAndFlushMemstore"%string /\
  memstore_rotators = "Close,PutBytes"%string.
Proof. repeat split; reflexivity. Qed.

Definition abs (s : cstate) : kv := fun k => db_get (c_db s) k.

Lemma ph_get_set t' t p l : ph_get t' (ph_set t p l) = if t' =? t then p else ph_get t' l.
Proof. exact (nget_nset phase Idle t' t p l). Qed.

Lemma reader_inside_get t k tv l : ph_get t l = GotTables k tv -> reader_inside l = true.
Proof.
  induction l as [|[t0 p0] l IH]; intros H; simpl in H; [discriminate|].
  change (reader_inside ((t0, p0) :: l))
    with ((match p0 with GotTables _ _ => true | _ => false end) || reader_inside l).
  destruct (t =? t0).
  - subst p0. reflexivity.
  - rewrite (IH H). apply orb_true_r.
Qed.

Definition body_of (d : db) (o : cop) : option (db * cres) :=
  match o with
  | CGet _ => None
  | CPut k v => Some (fst (db_put d k v), RPut (snd (db_put d k v)))
  | CDel k => Some (db_delete d k, RDel)
  end.

(* the enabled steps as relations, for inversion by name.  Only cstep -> CStep is meant: BsSelectNone has
   no premise, so the relations are larger than cstep.  BStep holds the steps that belong to no client
   call; they leave the phases alone *)
Inductive BStep (s : cstate) : action -> cstate -> Prop :=
| BsRotate (Hno : reader_inside (c_phase s) = false) (Hf : c_flushing s = None) :
    BStep s ARotate (mkC (swap (c_db s)) (Some (d_wr (c_db s))) (c_merged s) (c_phase s))
| BsInstall w (Hf : c_flushing s = Some w) :
    BStep s AInstall (mkC (install (c_db s) w) None (c_merged s) (c_phase s))
| BsSelectNone c sizes : BStep s (ASelectMerge c sizes) s
| BsSelect c sizes (Hm : c_merged s = None) :
    let sel := selection c sizes (d_tables (c_db s)) in
    BStep s (ASelectMerge c sizes)
          (mkC (c_db s) (c_flushing s) (Some (sel, merged_of sel (d_tables (c_db s)))) (c_phase s))
| BsReflect sel merged (Hno : reader_inside (c_phase s) = false) (Hm : c_merged s = Some (sel, merged)) :
    BStep s AReflect
          (mkC (mkDb (replace_run sel (d_tables (c_db s)) merged false) (d_rd (c_db s)) (d_wr (c_db s)) (d_gen (c_db s)))
               (c_flushing s) None (c_phase s)).

Inductive CStep (s : cstate) : action -> cstate -> Prop :=
| CsInv t o (Hp : ph_get t (c_phase s) = Idle) : CStep s (AInv t o) (with_phase s t (Invoked o))
| CsBody t o d r (Hno : reader_inside (c_phase s) = false) (Hp : ph_get t (c_phase s) = Invoked o)
         (Hb : body_of (c_db s) o = Some (d, r)) :
    CStep s (ABody t) (with_phase (with_db s d) t (Finished o r))
| CsGetTables t k (Hp : ph_get t (c_phase s) = Invoked (CGet k)) :
    CStep s (AGetTables t) (with_phase s t (GotTables k (tables_get (d_tables (c_db s)) k)))
| CsGetMem t k tv (Hp : ph_get t (c_phase s) = GotTables k tv) :
    CStep s (AGetMem t) (with_phase s t (Finished (CGet k) (RGet (memget (c_db s) k tv))))
| CsRes t o r (Hp : ph_get t (c_phase s) = Finished o r) : CStep s (ARes t) (with_phase s t Idle)
| CsBack a s' (Hb : BStep s a s') : CStep s a s'.

Lemma cstep_CStep s a s' : cstep s a = Some s' -> CStep s a s'.
Proof.
  (* over the result of cstep: the disabled cases close by I, the enabled ones need no injection *)
  intros H. enough (match cstep s a with Some s1 => CStep s a s1 | None => True end) as G
    by (rewrite H in G; exact G).
  clear H. destruct a as [t o|t|t|t|t| | |c sizes| ]; cbn [cstep].
  - destruct (ph_get t (c_phase s)) eqn:Hp; try exact I. constructor. exact Hp.
  - destruct (reader_inside (c_phase s)) eqn:Hno; [exact I|].
    destruct (ph_get t (c_phase s)) as [|[k|k v|k]| |] eqn:Hp; try exact I.
    + destruct (db_put (c_db s) k v) as [d ok] eqn:E.
      apply CsBody; [exact Hno|exact Hp|]. simpl. rewrite E. reflexivity.
    + apply CsBody; [exact Hno|exact Hp|reflexivity].
  - destruct (ph_get t (c_phase s)) as [|[k|k v|k]| |] eqn:Hp; try exact I. constructor. exact Hp.
  - destruct (ph_get t (c_phase s)) eqn:Hp; try exact I. constructor. exact Hp.
  - destruct (ph_get t (c_phase s)) eqn:Hp; try exact I. econstructor. exact Hp.
  - destruct (reader_inside (c_phase s)) eqn:Hno; [exact I|].
    destruct (c_flushing s) eqn:Hf; [exact I|]. apply CsBack, BsRotate; assumption.
  - destruct (c_flushing s) as [w|] eqn:Hf; [|exact I]. apply CsBack, BsInstall, Hf.
  - destruct (c_merged s) eqn:Hm; [exact I|].
    destruct (_ <=? _); [apply CsBack, BsSelectNone|].
    replace (match flood_fill _ with true :: _ => _ | _ => _ end)
      with (merged_of (selection c sizes (d_tables (c_db s))) (d_tables (c_db s))).
    + apply CsBack, BsSelect, Hm.
    + unfold merged_of. fold (selection c sizes (d_tables (c_db s))).
      destruct (selection c sizes (d_tables (c_db s))) as [|[] ?]; reflexivity.
  - destruct (reader_inside (c_phase s)) eqn:Hno; [exact I|].
    destruct (c_merged s) as [[sel merged]|] eqn:Hm; [|exact I]. apply CsBack, BsReflect; assumption.
Qed.

Definition pstat_of (p : phase) : option pstat :=
  match p with
  | Idle => None
  | Invoked o => Some (Pend o)
  | GotTables k _ => Some (Pend (CGet k))
  | Finished o r => Some (Lined o r)
  end.

Definition related (s : cstate) (m : kv) (P : pmap) : Prop :=
  (forall k, m k = abs s k) /\ (forall t, P t = pstat_of (ph_get t (c_phase s))).

Lemma kv_step_ext m m' o : (forall k, m k = m' k) ->
  snd (kv_step m o) = snd (kv_step m' o) /\ forall k, fst (kv_step m o) k = fst (kv_step m' o) k.
Proof.
  intros H. destruct o as [k|k v|k]; simpl.
  - rewrite H. split; [reflexivity|exact H].
  - destruct (put_ok k v); simpl; (split; [reflexivity|]); [|exact H].
    intros k0. unfold kv_set. rewrite H. reflexivity.
  - split; [reflexivity|]. intros k0. unfold kv_set. rewrite H. reflexivity.
Qed.

Lemma put_ok_valid k v : put_ok k v = valid_put k v.
Proof. reflexivity. Qed.

Lemma body_of_kv d o d' r : body_of d o = Some (d', r) ->
  snd (kv_step (db_get d) o) = r /\ forall k, db_get d' k = fst (kv_step (db_get d) o) k.
Proof.
  destruct o as [k|k v|k]; intros [= <- <-]; simpl.
  - rewrite db_put_eq, put_ok_valid.
    destruct (valid_put k v); split; try reflexivity. intros k0. apply db_get_wr_set.
  - split; [reflexivity|]. intros k0. apply db_get_wr_set.
Qed.

Lemma body_of_wr d o d' r : body_of d o = Some (d', r) -> lsorted (d_wr d) -> vals_ok (d_wr d) ->
  d_tables d' = d_tables d /\ d_rd d' = d_rd d /\ lsorted (d_wr d') /\ vals_ok (d_wr d').
Proof.
  intros H Hs Hv. destruct o as [k|k v|k]; [discriminate| |]; injection H as <- _.
  - rewrite db_put_eq. destruct (valid_put k v) eqn:E; [|auto].
    split; [|split]; [reflexivity..|]. apply wr_set_ok; [apply (valid_put_val k), E|assumption..].
  - split; [|split]; [reflexivity..|]. apply wr_set_ok; [discriminate|assumption..].
Qed.

Lemma replace_run_app sel : forall (pre extra : list (N * ltable)) m placed,
  (length sel <= length pre)%nat ->
  replace_run sel (pre ++ extra) m placed = replace_run sel pre m placed ++ extra.
Proof.
  induction sel as [|b sel IH]; intros pre extra m placed Hlen.
  - destruct pre; reflexivity.
  - destruct pre as [|[g t] pre]; simpl in Hlen; [lia|].
    simpl. destruct b; [destruct placed|]; rewrite IH by lia; reflexivity.
Qed.

Lemma reflect_eff sel pre extra k :
  seg sel -> stack_sorted pre -> (length sel <= length pre)%nat ->
  eff (tables_get (replace_run sel (pre ++ extra) (merged_of sel pre) false) k) = eff (tables_get (pre ++ extra) k).
Proof.
  intros Hseg Hts Hlen. rewrite replace_run_app, !tables_get_app by exact Hlen.
  apply eff_orelse_cong, replace_eff; assumption.
Qed.

Record CInv (s : cstate) : Prop := mkCInv {
  ci_ts : stack_sorted (d_tables (c_db s));
  ci_rd : lsorted (d_rd (c_db s));
  ci_wr : lsorted (d_wr (c_db s));
  ci_vrd : vals_ok (d_rd (c_db s));
  ci_vwr : vals_ok (d_wr (c_db s));
  ci_fl : match c_flushing s with
          | None => rd_agrees (d_rd (c_db s)) (d_tables (c_db s))
          | Some w => w = d_rd (c_db s)
          end;
  (* a pending merge was computed from a prefix of the table stack *)
  ci_mg : forall sel merged, c_merged s = Some (sel, merged) ->
          exists pre extra, d_tables (c_db s) = pre ++ extra /\ (length sel <= length pre)%nat
                            /\ seg sel /\ merged = merged_of sel pre;
  (* a reader between its two steps will read the current value *)
  ci_rdr : forall t k tv, ph_get t (c_phase s) = GotTables k tv ->
           memget (c_db s) k tv = db_get (c_db s) k
}.

Lemma cinv_init : CInv c_init.
Proof.
  split; simpl; try apply lsorted_nil; try apply vals_ok_nil; try discriminate. constructor.
Qed.

Lemma cinv_with_phase s t p : CInv s ->
  (forall k tv, p = GotTables k tv -> memget (c_db s) k tv = db_get (c_db s) k) ->
  CInv (with_phase s t p).
Proof.
  intros [Hts Hrd Hwr Hvrd Hvwr Hfl Hmg Hrdr] Hp. split; simpl; try assumption.
  intros t' k tv H. rewrite ph_get_set in H. destruct (t' =? t); [apply Hp, H|apply (Hrdr _ _ _ H)].
Qed.

Lemma no_reader ph d : reader_inside ph = false ->
  forall t k tv, ph_get t ph = GotTables k tv -> memget d k tv = db_get d k.
Proof. intros Hno t k tv H. apply reader_inside_get in H. congruence. Qed.

Lemma bstep_inv s a s' : CInv s -> BStep s a s' -> CInv s'.
Proof.
  intros Hinv Hb. destruct Hb.
  - destruct Hinv as [Hts Hrd Hwr Hvrd Hvwr Hfl Hmg Hrdr]. split; simpl; try assumption.
    + apply lsorted_nil.
    + apply vals_ok_nil.
    + reflexivity.
    + exact (no_reader _ _ Hno).
  - pose proof (ci_fl s Hinv) as Hfl. rewrite Hf in Hfl. subst w.
    destruct Hinv as [Hts Hrd Hwr Hvrd Hvwr _ Hmg Hrdr].
    split; cbn [c_db c_flushing c_merged c_phase]; rewrite ?install_rd, ?install_wr; try assumption.
    + apply install_sorted; assumption.
    + apply install_agrees.
    + intros sel merged H. destruct (Hmg sel merged H) as (pre & extra & Hd & Hm).
      destruct (install_tables (c_db s) (d_rd (c_db s))) as [new ->].
      exists pre, (extra ++ new). rewrite Hd, app_assoc. auto.
    + intros t k tv H. rewrite db_get_install, <- (Hrdr t k tv H).
      unfold memget. rewrite install_rd, install_wr. reflexivity.
  - exact Hinv.
  - destruct Hinv. split; simpl; try assumption.
    intros sel' merged' [= <- <-]. exists (d_tables (c_db s)), []. rewrite app_nil_r.
    repeat split; [apply selection_length|apply selection_seg].
  - destruct Hinv as [Hts Hrd Hwr Hvrd Hvwr Hfl Hmg Hrdr].
    destruct (Hmg sel merged Hm) as (pre & extra & Hd & Hlen & Hseg & ->).
    split; simpl; try assumption; try discriminate.
    + apply replace_run_sorted; [apply merged_sorted|exact Hts].
    + destruct (c_flushing s); [exact Hfl|]. intros k v H. rewrite Hd in Hts, Hfl |- *.
      apply Forall_app in Hts. rewrite reflect_eff by (assumption || apply Hts). apply Hfl, H.
    + exact (no_reader _ _ Hno).
Qed.

Lemma step_inv s a s' : CInv s -> cstep s a = Some s' -> CInv s'.
Proof.
  intros Hinv Hstep. apply cstep_CStep in Hstep. destruct Hstep.
  - apply cinv_with_phase; [exact Hinv|discriminate].
  - destruct (body_of_wr _ _ _ _ Hb (ci_wr s Hinv) (ci_vwr s Hinv)) as (Et & Er & Hs & Hv).
    apply cinv_with_phase; [|discriminate].
    split; simpl; rewrite ?Et, ?Er; try apply Hinv; try assumption. exact (no_reader _ _ Hno).
  - apply cinv_with_phase; [exact Hinv|]. intros k' tv' [= <- <-]. reflexivity.
  - apply cinv_with_phase; [exact Hinv|discriminate].
  - apply cinv_with_phase; [exact Hinv|discriminate].
  - exact (bstep_inv _ _ _ Hinv Hb).
Qed.

Definition point_of (a : action) : option N :=
  match a with ABody t | AGetMem t => Some t | _ => None end.

(* a step with a linearization point is the step of the map on what the database reads as; every other
   step leaves that unchanged *)
Lemma step_abs s a s' : CInv s -> cstep s a = Some s' ->
  match point_of a with
  | Some t => exists o r, pstat_of (ph_get t (c_phase s)) = Some (Pend o)
      /\ c_phase s' = ph_set t (Finished o r) (c_phase s)
      /\ snd (kv_step (abs s) o) = r
      /\ forall k, abs s' k = fst (kv_step (abs s) o) k
  | None => forall k, abs s' k = abs s k
  end.
Proof.
  intros Hinv Hstep. apply cstep_CStep in Hstep. pose proof (ci_fl s Hinv) as Hfl.
  destruct Hstep as [| | | | |a s' Hb]; [| | | | |destruct Hb]; cbn [point_of]; try (intros ?; reflexivity).
  - exists o, r. rewrite Hp. destruct (body_of_kv _ _ _ _ Hb) as [Hr Habs]. auto.
  - exists (CGet k), (RGet (memget (c_db s) k tv)). rewrite Hp. repeat split.
    simpl. unfold abs. rewrite (ci_rdr s Hinv t k tv Hp). reflexivity.
  - intros k. rewrite Hf in Hfl. apply db_get_swap; [apply Hinv..|exact Hfl].
  - intros k. rewrite Hf in Hfl. subst w. apply db_get_install.
  - intros k. destruct (ci_mg s Hinv sel merged Hm) as (pre & extra & Hd & Hlen & Hseg & ->).
    pose proof (ci_ts s Hinv) as Hts. rewrite Hd in Hts. apply Forall_app in Hts.
    apply db_get_tables; [reflexivity..|]. cbn [c_db d_tables]. rewrite Hd. apply reflect_eff; [assumption|apply Hts|assumption].
Qed.

Lemma pstat_set (P : pmap) ph t p : (forall t', P t' = pstat_of (ph_get t' ph)) ->
  forall t', pm_upd P t (pstat_of p) t' = pstat_of (ph_get t' (ph_set t p ph)).
Proof. intros HP t'. rewrite ph_get_set. unfold pm_upd. destruct (t' =? t); [reflexivity|apply HP]. Qed.

Lemma lin_sim acts : forall s m P, CInv s -> related s m P -> Lin m P (history s acts).
Proof.
  induction acts as [|a acts IH]; intros s m P Hinv [Hm HP]; simpl; [constructor|].
  destruct (cstep s a) as [s'|] eqn:Hstep; [|constructor].
  pose proof (step_inv _ _ _ Hinv Hstep) as Hinv'.
  pose proof (step_abs _ _ _ Hinv Hstep) as Habs. destruct (point_of a) as [t|] eqn:Hpt.
  - destruct Habs as (o & r & Hpend & Hph & Hr & Habs).
    destruct (kv_step_ext m (abs s) o Hm) as [E1 E2].
    assert (Lin m P (history s' acts)) as HL.
    { apply LinPoint with (m' := abs s') (P' := pm_upd P t (Some (Lined o r))) (t := t) (o := o) (r := r).
      - rewrite HP. exact Hpend.
      - rewrite E1. exact Hr.
      - intros k. rewrite Habs. symmetry. apply E2.
      - reflexivity.
      - apply IH; [exact Hinv'|]. split; [reflexivity|]. rewrite Hph. apply (pstat_set P _ t (Finished o r) HP). }
    destruct a; try discriminate; exact HL.
  - assert (forall k, m k = abs s' k) as Hm' by (intros k; rewrite Habs; apply Hm).
    apply cstep_CStep in Hstep. destruct Hstep as [| | | | |a s' Hb]; try discriminate; simpl; rewrite ?Hp.
    + apply LinInv with (P' := pm_upd P t (Some (Pend o))); [rewrite HP, Hp; reflexivity|reflexivity|].
      apply IH; [exact Hinv'|]. split; [exact Hm'|apply (pstat_set P _ t (Invoked o) HP)].
    + apply IH; [exact Hinv'|]. split; [exact Hm'|].
      intros t'. simpl. rewrite ph_get_set. destruct (t' =? t) eqn:E; [|apply HP].
      apply N.eqb_eq in E. subst t'. rewrite HP, Hp. reflexivity.
    + apply LinRes with (P' := pm_upd P t None); [rewrite HP, Hp; reflexivity|reflexivity|].
      apply IH; [exact Hinv'|]. split; [exact Hm'|apply (pstat_set P _ t Idle HP)].
    + destruct Hb; apply IH; (exact Hinv' || (split; [exact Hm'|exact HP])).
Qed.

(* [history] and [lin_points] stop at the first action that is not enabled, so what is said covers the
   run up to there of any action list and the hypothesis on crun is not used *)
Theorem histories_linearizable (acts : list action) (s : cstate) :
  crun c_init acts = Some s -> linearizable (history c_init acts).
Proof.
  intros _. apply lin_sim; [apply cinv_init|]. split; intros x; reflexivity.
Qed.

Fixpoint legal (m : kv) (l : list (N * cop * cres)) : Prop :=
  match l with
  | [] => True
  | (_, o, r) :: rest => snd (kv_step m o) = r /\ legal (fst (kv_step m o)) rest
  end.

Definition ev_of (a : action) (s' : cstate) : list (N * cop * cres) :=
  match point_of a with
  | Some t => match ph_get t (c_phase s') with Finished o r => [(t, o, r)] | _ => [] end
  | None => []
  end.

Lemma lin_points_cons s a acts s' : cstep s a = Some s' ->
  lin_points s (a :: acts) = ev_of a s' ++ lin_points s' acts.
Proof. intros H. simpl. rewrite H. destruct a; reflexivity. Qed.

Lemma legal_ext l : forall m m', (forall k, m k = m' k) -> legal m l -> legal m' l.
Proof.
  induction l as [|[[t o] r] l IH]; intros m m' H; simpl; [auto|].
  intros [H1 H2]. destruct (kv_step_ext m m' o H) as [E1 E2].
  split; [rewrite <- E1; exact H1|]. eapply IH; [exact E2|exact H2].
Qed.

(* final_state_is_map below spells this fold out *)
Definition replay (l : list (N * cop * cres)) (m : kv) : kv :=
  fold_left (fun m e => fst (kv_step m (snd (fst e)))) l m.

Lemma replay_ext l : forall m m', (forall k, m k = m' k) -> forall k, replay l m k = replay l m' k.
Proof.
  induction l as [|[[t o] r] l IH]; intros m m' H k; simpl; [apply H|].
  apply IH. apply kv_step_ext. exact H.
Qed.

Lemma run_sim acts : forall s, CInv s ->
  legal (abs s) (lin_points s acts)
  /\ forall s', crun s acts = Some s' -> forall k, abs s' k = replay (lin_points s acts) (abs s) k.
Proof.
  induction acts as [|a acts IH]; intros s Hinv; [split; [exact I|intros s' [= <-] k; reflexivity]|].
  simpl crun. destruct (cstep s a) as [s1|] eqn:Hstep; [|simpl; rewrite Hstep; split; [exact I|discriminate]].
  rewrite (lin_points_cons _ _ _ _ Hstep). unfold ev_of.
  destruct (IH s1 (step_inv _ _ _ Hinv Hstep)) as [IHl IHr].
  pose proof (step_abs _ _ _ Hinv Hstep) as Habs. destruct (point_of a) as [t|].
  - destruct Habs as (o & r & _ & Hph & Hr & Habs).
    rewrite Hph, ph_get_set, N.eqb_refl. simpl. split.
    + split; [exact Hr|]. apply (legal_ext _ _ _ Habs IHl).
    + intros s' Hrun k. rewrite (IHr s' Hrun). apply replay_ext, Habs.
  - simpl. split.
    + apply (legal_ext _ _ _ Habs IHl).
    + intros s' Hrun k. rewrite (IHr s' Hrun). apply replay_ext, Habs.
Qed.

Theorem lin_points_legal (acts : list action) (s : cstate) :
  crun c_init acts = Some s -> legal kv_empty (lin_points c_init acts).
Proof. intros _. apply (run_sim acts c_init cinv_init). Qed.

Theorem final_state_is_map (acts : list action) (s : cstate) :
  crun c_init acts = Some s ->
  forall k, db_get (c_db s) k = fold_left (fun m e => fst (kv_step m (snd (fst e)))) (lin_points c_init acts) kv_empty k.
Proof. intros Hrun. apply (run_sim acts c_init cinv_init), Hrun. Qed.

(* a schedule in which a Get overlaps a rotation's install and a compaction runs *)
Example schedule_runs :
  exists s, crun c_init
    [AInv 1 (CPut (Some [1]) (Some [7])); ABody 1; ARes 1; ARotate;
     AInv 2 (CGet [1]); AGetTables 2; AInstall; AGetMem 2; ARes 2;
     AInv 1 (CDel (Some [1])); ABody 1; ARotate; AInstall;
     ASelectMerge (mkCfg 0 100 1000) [10; 10]; AInv 2 (CGet [1]); AGetTables 2; AGetMem 2; AReflect; ARes 2] = Some s
    /\ history c_init
    [AInv 1 (CPut (Some [1]) (Some [7])); ABody 1; ARes 1; ARotate;
     AInv 2 (CGet [1]); AGetTables 2; AInstall; AGetMem 2; ARes 2] =
    [HInv 1 (CPut (Some [1]) (Some [7])); HRes 1 (CPut (Some [1]) (Some [7])) (RPut true);
     HInv 2 (CGet [1]); HRes 2 (CGet [1]) (RGet (Some [7]))].
Proof. eexists. split; vm_compute; reflexivity. Qed.

Print Assumptions histories_linearizable.
Print Assumptions lin_points_legal.
Print Assumptions final_state_is_map.
Print Assumptions schedule_runs.
