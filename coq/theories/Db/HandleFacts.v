(* C17, life cycle: a refused call changes neither the flags nor the content, and whatever mix of refused calls
   surrounds them, the calls between the Open and the Close of a handle run as the program of the logical database. *)
From GoSST Require Import Base.Bytes Db.Logical Db.LogicalFacts Db.Handle.

Theorem refused_call_has_no_effect (h : handle) (c : hcall) (e : herr) :
  snd (h_step h c) = HRefused e -> fst (h_step h c) = h.
Proof.
  destruct c as [| |k v|k|k]; cbn [h_step].
  - destruct (h_open h); cbn; [reflexivity|discriminate].
  - destruct (refusal h); cbn; [reflexivity|discriminate].
  - destruct (put_args_ok k v); cbn [negb]; [|reflexivity].
    destruct (refusal h); [reflexivity|]. destruct (db_step (h_db h) (SPut k v)); cbn. discriminate.
  - destruct (refusal h); [reflexivity|]. destruct (db_step (h_db h) (SDelete k)); cbn. discriminate.
  - destruct (refusal h); [reflexivity|]. destruct (db_step (h_db h) (SGet k)); cbn. discriminate.
Qed.

(* outside the window every call is refused (a Put with an empty argument as such); before Open an
   Open is not *)
Lemma run_refused (h : handle) (e : herr) (cs : list hcall) :
  refusal h = Some e -> h_open h = true \/ Forall (fun c => c <> HOpen) cs ->
  h_run h cs = (h, map (outside e) cs).
Proof.
  intros Hr Ho. induction cs as [|c cs IH]; [reflexivity|]. cbn [h_run map].
  assert (h_step h c = (h, outside e c)) as ->.
  { destruct c as [| |k v|k|k]; cbn [h_step outside]; rewrite ?Hr; try reflexivity.
    - destruct Ho as [->|Ho]; [reflexivity|]. inversion Ho; contradiction.
    - destruct (put_args_ok k v); reflexivity. }
  rewrite IH; [reflexivity|].
  destruct Ho as [Ho|Ho]; [left; exact Ho|right; inversion Ho; assumption].
Qed.

Fixpoint window_outs (s : db) (cs : list hcall) : db * list hout :=
  match cs with
  | [] => (s, [])
  | c :: r =>
      match data_step c with
      | Some st => let '(s', o) := db_step s st in let '(s'', os) := window_outs s' r in (s'', HDone o :: os)
      | None => let '(s'', os) := window_outs s r in (s'', HRefused EAlreadyOpen :: os)     (* HOpen; HClose is excluded below *)
      end
  end.

Lemma put_args_ok_valid k v : put_args_ok k v = valid_put k v.
Proof. reflexivity. Qed.

Lemma window_step (s : db) (c : hcall) (st : dstep) : data_step c = Some st ->
  h_step (mkHandle true false s) c = (mkHandle true false (fst (db_step s st)), HDone (snd (db_step s st))).
Proof.
  destruct c as [| |k v|k|k]; intros [= <-]; try reflexivity.
  cbn [h_step db_step h_db]. rewrite put_args_ok_valid, db_put_eq. destruct (valid_put k v); reflexivity.
Qed.

Lemma run_window (cs : list hcall) : Forall (fun c => c <> HClose) cs ->
  forall s, h_run (mkHandle true false s) cs
            = (mkHandle true false (fst (window_outs s cs)), snd (window_outs s cs)).
Proof.
  induction 1 as [|c cs Hc _ IH]; intro s; [reflexivity|]. cbn [h_run window_outs].
  destruct (data_step c) as [st|] eqn:E.
  - rewrite (window_step s c st E). destruct (db_step s st) as [s' o]. cbn [fst snd].
    rewrite IH. destruct (window_outs s' cs). reflexivity.
  - destruct c; try discriminate; [|contradiction]. cbn [h_step h_open].
    rewrite IH. destruct (window_outs s cs). reflexivity.
Qed.

Lemma h_run_app (h : handle) (a b : list hcall) :
  h_run h (a ++ b) = let '(h1, o1) := h_run h a in let '(h2, o2) := h_run h1 b in (h2, o1 ++ o2).
Proof.
  revert h; induction a as [|c a IH]; intro h.
  - cbn. destruct (h_run h b). reflexivity.
  - cbn [app h_run]. destruct (h_step h c) as [h' o]. rewrite IH.
    destruct (h_run h' a) as [h1 o1]. destruct (h_run h1 b) as [h2 o2]. reflexivity.
Qed.

Theorem handle_life (stored : db) (pre window post : list hcall) :
  Forall (fun c => c <> HOpen) pre -> Forall (fun c => c <> HClose) window ->
  let opened := db_reopen stored in
  h_run (handle_new stored) (pre ++ [HOpen] ++ window ++ [HClose] ++ post)
  = (mkHandle true true (db_reopen (fst (window_outs opened window))),
     map (outside ENotOpenedYet) pre ++ [HDone ODone] ++ snd (window_outs opened window) ++ [HDone ODone]
     ++ map (outside EAlreadyClosed) post).
Proof.
  intros Hpre Hwin opened.
  rewrite h_run_app, (run_refused (handle_new stored) ENotOpenedYet pre eq_refl (or_intror Hpre)).
  rewrite h_run_app. cbn [h_run h_step handle_new h_open h_closed h_db].
  rewrite h_run_app, (run_window window Hwin).
  rewrite h_run_app. cbn [h_run h_step refusal h_open h_closed h_db negb].
  rewrite (run_refused (mkHandle true true _) EAlreadyClosed post eq_refl (or_introl eq_refl)). reflexivity.
Qed.

(* Close before Open is refused and the handle still opens and works; after Close everything is refused *)
Local Open Scope N_scope.
Example handle_example :
  snd (h_run (handle_new db_empty)
         [HClose; HGet [1]; HOpen; HPut (Some [1]) (Some [7]); HOpen; HGet [1]; HClose; HGet [1]; HOpen; HClose])
  = [HRefused ENotOpenedYet; HRefused ENotOpenedYet; HDone ODone; HDone (OPut true); HRefused EAlreadyOpen;
     HDone (OGet (Some [7])); HDone ODone; HRefused EAlreadyClosed; HRefused EAlreadyOpen; HRefused EAlreadyClosed].
Proof. reflexivity. Qed.

Print Assumptions refused_call_has_no_effect.
Print Assumptions handle_life.
