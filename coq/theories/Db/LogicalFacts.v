(* C01 / C06 / C17 over the logical database machine (Db/Logical.v): a Get returns the value of the
   most recent Put (or not-found) wherever flushes, compaction cycles (any configuration, any table
   sizes, hence any selectable run) and reopens are placed. *)
From GoSST Require Import Base.Bytes Base.Order Base.ListFacts SST.MergeFacts Db.Logical.
From Coq Require Import Lia Sorting.Sorted.
Local Open Scope N_scope.

Fixpoint last_true (a : list bool) (pos : nat) (acc : option nat) : option nat :=
  match a with
  | [] => acc
  | b :: r => last_true r (S pos) (if b then Some pos else acc)
  end.

(* the selection after floodFill: everything between the first and the last pre-selected table *)
Definition flood_spec (a : list bool) : list bool :=
  match next_true a 0, last_true a 0 None with
  | Some f, Some l => fill a f l 0
  | _, _ => a
  end.

Lemma fill_length a : forall i j pos, length (fill a i j pos) = length a.
Proof. induction a as [|b a IH]; intros i j pos; simpl; [|rewrite IH]; reflexivity. Qed.

Lemma fill_true a : forall i j pos p,
  nth p (fill a i j pos) false = true
  <-> (i <= pos + p <= j /\ p < length a)%nat \/ nth p a false = true.
Proof.
  induction a as [|b a IH]; intros i j pos [|p]; simpl; try lia.
  - rewrite orb_true_iff, andb_true_iff, !Nat.leb_le. destruct b; lia.
  - rewrite IH. destruct (nth p a false); lia.
Qed.

Lemma fill_fill a i j l : (i <= j <= l)%nat -> fill (fill a i j 0) j l 0 = fill a i l 0.
Proof.
  intros H. apply bools_ext; [rewrite !fill_length; reflexivity|].
  intros p. rewrite !fill_true, fill_length. simpl. destruct (nth p a false); lia.
Qed.

Lemma fill_id a i j : (forall p, (i <= p <= j)%nat -> nth p a false = true) -> fill a i j 0 = a.
Proof.
  intros H. apply bools_ext; [apply fill_length|].
  intros p. rewrite fill_true. simpl. split; [intros [[Hp _]|Hp]; auto|right; assumption].
Qed.

Lemma next_true_spec a : forall j,
  (next_true a j = None /\ forall p, nth p a false = false)
  \/ exists p, next_true a j = Some (j + p)%nat /\ nth p a false = true
              /\ forall q, nth q a false = true -> (p <= q)%nat.
Proof.
  induction a as [|[] a IH]; intros j; simpl.
  - left. split; [reflexivity|]. intros [|p]; reflexivity.
  - right. exists O. rewrite Nat.add_0_r. repeat split. lia.
  - destruct (IH (S j)) as [[E Hall]|(p & E & Hp & Hq)].
    + left. split; [exact E|]. intros [|p]; [reflexivity|apply Hall].
    + right. exists (S p). rewrite Nat.add_succ_r. repeat split; [exact E|exact Hp|].
      intros [|q] H; [discriminate|]. apply le_n_S, Hq, H.
Qed.

Lemma last_true_spec a : forall pos acc,
  (last_true a pos acc = acc /\ forall p, nth p a false = false)
  \/ exists p, last_true a pos acc = Some (pos + p)%nat /\ nth p a false = true
              /\ forall q, nth q a false = true -> (q <= p)%nat.
Proof.
  induction a as [|b a IH]; intros pos acc; simpl.
  - left. split; [reflexivity|]. intros [|p]; reflexivity.
  - destruct (IH (S pos) (if b then Some pos else acc)) as [[E Hall]|(p & E & Hp & Hq)].
    + destruct b.
      * right. exists O. rewrite Nat.add_0_r. repeat split; [exact E|].
        intros [|q] H; [lia|]. simpl in H. rewrite Hall in H. discriminate.
      * left. split; [exact E|]. intros [|p]; [reflexivity|apply Hall].
    + right. exists (S p). rewrite Nat.add_succ_r. repeat split; [exact E|exact Hp|].
      intros [|q] H; [lia|]. apply le_n_S, Hq, H.
Qed.

Definition hull (a : list bool) (f l : nat) : Prop :=
  nth f a false = true /\ nth l a false = true /\ forall p, nth p a false = true -> (f <= p <= l)%nat.

Lemma flood_spec_cases a :
  (flood_spec a = a /\ forall p, nth p a false = false)
  \/ exists f l, hull a f l /\ flood_spec a = fill a f l 0.
Proof.
  unfold flood_spec.
  destruct (next_true_spec a 0) as [[-> Hall]|(f & -> & Hf & Hmin)]; [left; split; [reflexivity|exact Hall]|].
  destruct (last_true_spec a 0 None) as [[_ Hall]|(l & -> & Hl & Hmax)]; [rewrite Hall in Hf; discriminate|].
  right. exists f, l. split; [|reflexivity]. repeat split; auto.
Qed.

(* started at a set position, each round fills up to the next set position and goes on from there *)
Lemma flood_from_true : forall fuel a i l, (length a < fuel + i)%nat ->
  nth i a false = true -> nth l a false = true -> (forall p, nth p a false = true -> (p <= l)%nat) ->
  flood_loop fuel a i = fill a i l 0.
Proof.
  induction fuel as [|n IH]; intros a i l Hlen Hi Hl Hmax; pose proof (nth_true_lt _ _ Hi) as Hlt; [lia|].
  cbn [flood_loop]. destruct (Nat.ltb_spec i (length a)) as [_|]; [|lia]. rewrite Hi.
  destruct (next_true_spec (skipn (S i) a) (S i)) as [[-> Hnone]|(p & -> & Hp & _)].
  - assert (l = i) as ->.
    { pose proof (Hmax i Hi). destruct (Nat.eq_dec l i) as [E|E]; [exact E|].
      specialize (Hnone (l - S i)%nat). rewrite nth_skipn in Hnone.
      replace (S i + (l - S i))%nat with l in Hnone by lia. congruence. }
    symmetry. apply fill_id. intros p Hp. replace p with i by lia. exact Hi.
  - rewrite nth_skipn in Hp. pose proof (Hmax _ Hp).
    rewrite (IH _ _ l), fill_fill; [reflexivity|lia|rewrite fill_length; lia|..];
      try (apply fill_true; right; assumption).
    intros q Hq. apply fill_true in Hq. destruct Hq as [Hq|Hq]; [lia|apply Hmax, Hq].
Qed.

Lemma flood_to_first a f l : hull a f l -> forall fuel i, (length a < fuel + i)%nat -> (i <= f)%nat ->
  flood_loop fuel a i = fill a f l 0.
Proof.
  intros (Hf & Hl & Hin). pose proof (nth_true_lt _ _ Hf) as Hlt.
  induction fuel as [|n IH]; intros i Hlen Hif; [lia|]. destruct (nth i a false) eqn:Hi.
  - assert (i = f) as -> by (apply Hin in Hi; lia).
    apply flood_from_true; [exact Hlen|exact Hf|exact Hl|apply Hin].
  - cbn [flood_loop]. destruct (Nat.ltb_spec i (length a)) as [_|]; [|lia]. rewrite Hi.
    apply IH; [lia|]. destruct (Nat.eq_dec i f) as [->|]; [congruence|lia].
Qed.

Lemma flood_none a : (forall p, nth p a false = false) -> forall fuel i, flood_loop fuel a i = a.
Proof.
  intros Hall. induction fuel as [|n IH]; intros i; cbn [flood_loop]; [reflexivity|].
  rewrite Hall. destruct (_ <? _)%nat; [apply IH|reflexivity].
Qed.

Theorem flood_fill_contiguous (a : list bool) : flood_fill a = flood_spec a.
Proof.
  destruct (flood_spec_cases a) as [[-> Hall]|(f & l & Hh & ->)].
  - apply flood_none, Hall.
  - apply (flood_to_first a f l Hh); lia.
Qed.

Lemma fill_hull a f l p : hull a f l -> (nth p (fill a f l 0) false = true <-> (f <= p <= l)%nat).
Proof.
  intros (_ & Hl & Hin). apply nth_true_lt in Hl. rewrite fill_true. simpl.
  split; [intros [[H _]|H]; auto|lia].
Qed.

Definition nogap (l : list bool) : Prop :=
  forall i j k, (i <= j <= k)%nat -> nth i l false = true -> nth k l false = true -> nth j l false = true.

Corollary flood_fill_props (a : list bool) :
  length (flood_fill a) = length a
  /\ (forall i, nth i a false = true -> nth i (flood_fill a) false = true)
  /\ nogap (flood_fill a).
Proof.
  rewrite flood_fill_contiguous.
  destruct (flood_spec_cases a) as [[-> Hall]|(f & l & Hh & ->)].
  - split; [reflexivity|]. split; [auto|]. intros i j k _ Hi. rewrite Hall in Hi. discriminate.
  - split; [apply fill_length|]. split.
    + intros i Hi. apply (fill_hull _ _ _ _ Hh), Hh, Hi.
    + intros i j k Hijk. rewrite !(fill_hull _ _ _ _ Hh). lia.
Qed.

Definition lsorted (t : ltable) : Prop := StronglySorted (fun a b => bcmp (fst a) (fst b) = Lt) t.

Lemma lsorted_nil : lsorted [].
Proof. constructor. Qed.

(* Logical.v's ltable, lt_get, lt_set, lt_overlay, lt_union are SST/MergeFacts.v's table, t_get, t_set,
   overlay, union_latest (and lsorted is its tsorted): the facts come from there *)
Lemma lt_get_set k k' v l : lt_get k (lt_set k' v l) = if beqb k k' then Some v else lt_get k l.
Proof. exact (t_get_t_set k k' v l). Qed.

Lemma lt_set_sorted k v l : lsorted l -> lsorted (lt_set k v l).
Proof. exact (t_set_sorted k v l). Qed.

Lemma lt_get_above k l : Forall (fun b => bcmp k (fst b) = Lt) l -> lt_get k l = None.
Proof. exact (t_get_above k l). Qed.

Lemma lt_overlay_sorted newer : forall base, lsorted base -> lsorted (lt_overlay base newer).
Proof. exact (overlay_sorted newer). Qed.

Lemma lt_union_sorted ts : lsorted (lt_union ts).
Proof. exact (union_latest_sorted ts). Qed.

Lemma lt_overlay_get k newer : forall base, lsorted newer ->
  lt_get k (lt_overlay base newer) = orelse (lt_get k newer) (lt_get k base).
Proof. exact (t_get_overlay k newer). Qed.

(* unfolded, the first clause of Inv *)
Definition stack_sorted (ts : list (N * ltable)) : Prop := Forall (fun t => lsorted (snd t)) ts.

Lemma tables_get_rev_newest ts k : tables_get_rev ts k = newest_value k (map snd ts).
Proof. induction ts as [|[g t] ts IH]; simpl; [reflexivity|]. rewrite IH. reflexivity. Qed.

Lemma tables_get_newest ts k : tables_get ts k = newest_value k (rev (map snd ts)).
Proof. unfold tables_get. rewrite tables_get_rev_newest, map_rev. reflexivity. Qed.

Lemma tables_get_app x y k : tables_get (x ++ y) k = orelse (tables_get y k) (tables_get x k).
Proof. rewrite !tables_get_newest, map_app, rev_app_distr. apply newest_value_app. Qed.

Lemma tables_get_nil k : tables_get [] k = None.
Proof. reflexivity. Qed.

Lemma tables_get_one g t k : tables_get [(g, t)] k = lt_get k t.
Proof. unfold tables_get. simpl. destruct (lt_get k t); reflexivity. Qed.

Lemma tables_get_snoc ts g t k : tables_get (ts ++ [(g, t)]) k = orelse (lt_get k t) (tables_get ts k).
Proof. rewrite tables_get_app, tables_get_one. reflexivity. Qed.

Lemma tables_get_mid ts pre mid post k : ts = pre ++ mid ++ post ->
  tables_get ts k = orelse (tables_get post k) (orelse (tables_get mid k) (tables_get pre k)).
Proof. intros ->. rewrite !tables_get_app. destruct (tables_get post k); reflexivity. Qed.

Lemma lt_union_get k run : stack_sorted run -> lt_get k (lt_union (map snd run)) = tables_get run k.
Proof.
  intros Hs. rewrite tables_get_newest. apply (union_latest_get (map snd run) k), Forall_map, Hs.
Qed.

(* what a stored value reads as *)
Definition eff (v : option mval) : option bytes :=
  match v with Some (Some (b :: r)) => Some (b :: r) | _ => None end.

Lemma eff_orelse_cong (a x y : option mval) : eff x = eff y -> eff (orelse a x) = eff (orelse a y).
Proof. intros H. destruct a; [reflexivity|exact H]. Qed.

Lemma lt_get_keep k u :
  lt_get k (keep_tombstones u) = option_map (fun v => match v with None => Some [] | Some x => Some x end) (lt_get k u).
Proof.
  induction u as [|[k' v'] u IH]; simpl; [reflexivity|].
  destruct (beqb k k'); [|exact IH]. destruct v'; reflexivity.
Qed.

Lemma keep_eff k u (below : option mval) :
  eff (orelse (lt_get k (keep_tombstones u)) below) = eff (orelse (lt_get k u) below).
Proof. rewrite lt_get_keep. destruct (lt_get k u) as [[z|]|]; reflexivity. Qed.

Lemma lt_get_drop k u : lsorted u ->
  lt_get k (drop_tombstones u) = match lt_get k u with Some (Some (b :: r)) => Some (Some (b :: r)) | _ => None end.
Proof.
  induction u as [|[k' v'] u IH]; simpl; intros Hs; [reflexivity|].
  inversion Hs as [|? ? Hs' Hall]; subst. simpl in Hall.
  destruct (beqb k k') eqn:E.
  - apply beqb_true in E. subst k'.
    destruct v' as [[|b r]|]; simpl; rewrite ?beqb_refl; try reflexivity;
      rewrite IH by exact Hs'; rewrite (lt_get_above k u) by exact Hall; reflexivity.
  - destruct v' as [[|b r]|]; simpl; rewrite ?E; apply IH; exact Hs'.
Qed.

Lemma eff_drop (x : option mval) :
  eff (match x with Some (Some (b :: r)) => Some (Some (b :: r)) | _ => None end) = eff x.
Proof. destruct x as [[[|b r]|]|]; reflexivity. Qed.

Lemma drop_sorted u : lsorted u -> lsorted (drop_tombstones u).
Proof. apply StronglySorted_filter. Qed.

Lemma keep_sorted u : lsorted u -> lsorted (keep_tombstones u).
Proof. intros H. apply StronglySorted_map. exact H. Qed.

(* named so that db_compact has an equation *)
Definition selection (c : cfg) (sizes : list N) (ts : list (N * ltable)) : list bool :=
  flood_fill (map (fun p => preselect c (fst p) (snd (snd p))) (combine sizes ts)).

Definition merged_of (sel : list bool) (ts : list (N * ltable)) : ltable :=
  let u := lt_union (map snd (select_by sel ts)) in
  if match sel with true :: _ => true | _ => false end then drop_tombstones u else keep_tombstones u.

Lemma db_compact_eq c sizes s :
  let sel := selection c sizes (d_tables s) in
  db_compact c sizes s =
  if N.of_nat (length (select_by sel (d_tables s))) <=? c_threshold c then (s, [])
  else (mkDb (replace_run sel (d_tables s) (merged_of sel (d_tables s)) false) (d_rd s) (d_wr s) (d_gen s),
        map fst (select_by sel (d_tables s))).
Proof. reflexivity. Qed.

Lemma merged_sorted sel ts : lsorted (merged_of sel ts).
Proof.
  unfold merged_of. destruct (match sel with true :: _ => true | _ => false end).
  - apply drop_sorted, lt_union_sorted.
  - apply keep_sorted, lt_union_sorted.
Qed.

(* [seg] is [nogap] in structural form, false* true* false*: replace_run and select_by recurse on the
   list, so this is the form their lemmas need *)
Definition all_false (l : list bool) : Prop := Forall (fun b => b = false) l.
Fixpoint seg_tail (l : list bool) : Prop :=
  match l with [] => True | true :: r => seg_tail r | false :: r => all_false r end.
Fixpoint seg (l : list bool) : Prop :=
  match l with [] => True | false :: r => seg r | true :: r => seg_tail r end.

Lemma nogap_tail b r : nogap (b :: r) -> nogap r.
Proof. intros H i j k Hijk Hi Hk. apply (H (S i) (S j) (S k)); [lia|exact Hi|exact Hk]. Qed.

Lemma nogap_seg_tail r : nogap (true :: r) -> seg_tail r.
Proof.
  induction r as [|[] r IH]; simpl; intros H; [exact I| |].
  - apply IH. intros i j k Hijk. apply (H (S i) (S j) (S k)). lia.
  - apply Forall_forall. intros [] Hx; [|reflexivity].
    apply (In_nth _ _ false) in Hx. destruct Hx as (n & _ & Hn).
    symmetry. apply (H 0%nat 1%nat (S (S n))); [lia|reflexivity|exact Hn].
Qed.

Lemma nogap_seg l : nogap l -> seg l.
Proof.
  induction l as [|[] l IH]; simpl; intros H; [exact I|apply nogap_seg_tail, H|].
  apply IH. eapply nogap_tail, H.
Qed.

Lemma selection_seg c sizes ts : seg (selection c sizes ts).
Proof. apply nogap_seg. exact (proj2 (proj2 (flood_fill_props _))). Qed.

Lemma selection_length c sizes ts : (length (selection c sizes ts) <= length ts)%nat.
Proof.
  unfold selection. rewrite (proj1 (flood_fill_props _)), map_length, combine_length. apply Nat.le_min_r.
Qed.

Lemma sel_all_false sel : all_false sel -> forall (ts : list (N * ltable)) m placed,
  select_by sel ts = [] /\ replace_run sel ts m placed = ts.
Proof.
  induction 1 as [|b sel -> _ IH]; intros [|x ts] m placed; simpl; try (split; reflexivity).
  destruct (IH ts m placed) as [-> ->]. split; reflexivity.
Qed.

Lemma sel_seg_tail sel : seg_tail sel -> forall (ts : list (N * ltable)) m,
  ts = select_by sel ts ++ replace_run sel ts m true.
Proof.
  induction sel as [|[] sel IH]; intros Hseg [|[g t] ts] m; simpl; try reflexivity.
  - f_equal. apply IH, Hseg.
  - destruct (sel_all_false sel Hseg ts m true) as [-> ->]. reflexivity.
Qed.

(* the last clause links merged_of's test for dropping tombstones (the selection starts with true)
   to "nothing lies below the run" *)
Lemma sel_seg sel : seg sel -> forall (ts : list (N * ltable)) m,
  exists pre post, ts = pre ++ select_by sel ts ++ post
    /\ replace_run sel ts m false
       = match select_by sel ts with [] => ts | (g, _) :: _ => pre ++ [(g, m)] ++ post end
    /\ (forall s, sel = true :: s -> pre = []).
Proof.
  induction sel as [|[] sel IH]; intros Hseg [|[g t] ts] m; simpl; try (exists [], []; repeat split; reflexivity).
  - exists [], ((g, t) :: ts). repeat split; reflexivity.
  - exists [], (replace_run sel ts m true). repeat split. simpl. f_equal. apply sel_seg_tail, Hseg.
  - destruct (IH Hseg ts m) as (pre & post & Hts & -> & _).
    exists ((g, t) :: pre), post. simpl. split; [f_equal; exact Hts|]. split; [|discriminate].
    destruct (select_by sel ts) as [|[]]; reflexivity.
Qed.

Lemma replace_run_sorted merged : lsorted merged -> forall sel ts placed,
  stack_sorted ts -> stack_sorted (replace_run sel ts merged placed).
Proof.
  intros Hm. induction sel as [|b sel IH]; intros ts placed Hts; [destruct ts; exact Hts|].
  destruct ts as [|[g t] ts]; [destruct b; exact Hts|].
  inversion Hts as [|? ? H1 H2]; subst.
  destruct b; simpl.
  - destruct placed; [apply IH, H2|]. constructor; [exact Hm|apply IH, H2].
  - constructor; [exact H1|apply IH, H2].
Qed.

(* above whatever lies below a run, the union of the run reads as the run did, with its tombstones kept
   as empty values, or dropped if nothing lies below *)
Lemma union_eff (drop : bool) run k (below : option mval) :
  stack_sorted run -> (drop = true -> below = None) ->
  eff (orelse (lt_get k (let u := lt_union (map snd run) in
                         if drop then drop_tombstones u else keep_tombstones u)) below)
  = eff (orelse (tables_get run k) below).
Proof.
  intros Hs Hb. cbv zeta. destruct drop.
  - rewrite (Hb eq_refl), !orelse_None_r, lt_get_drop, eff_drop, lt_union_get by (exact Hs || apply lt_union_sorted).
    reflexivity.
  - rewrite keep_eff, lt_union_get by exact Hs. reflexivity.
Qed.

Lemma merged_eff sel ts k (below : option mval) :
  stack_sorted (select_by sel ts) -> (forall s, sel = true :: s -> below = None) ->
  eff (orelse (lt_get k (merged_of sel ts)) below) = eff (orelse (tables_get (select_by sel ts) k) below).
Proof.
  intros Hs Hold. apply (union_eff _ _ k below Hs). destruct sel as [|[] s]; [discriminate|eauto|discriminate].
Qed.

Lemma replace_eff sel ts k :
  seg sel -> stack_sorted ts ->
  eff (tables_get (replace_run sel ts (merged_of sel ts) false) k) = eff (tables_get ts k).
Proof.
  intros Hseg Hts.
  destruct (sel_seg sel Hseg ts (merged_of sel ts)) as (pre & post & Hdec & -> & Hold).
  pose proof (merged_eff sel ts k (tables_get pre k)) as Hm.
  destruct (select_by sel ts) as [|[g t] run]; [reflexivity|].
  rewrite (tables_get_mid ts _ _ _ k Hdec), (tables_get_mid _ pre _ post k eq_refl), tables_get_one.
  apply eff_orelse_cong, Hm.
  - rewrite Hdec in Hts. apply Forall_app in Hts. destruct Hts as [_ Hts]. apply Forall_app in Hts. apply Hts.
  - intros s ->. rewrite (Hold s eq_refl). reflexivity.
Qed.

(* Put rejects empty values.  Without this clause of Inv the flush and reopen theorems are false:
   Remark inv_needs_vals_ok. *)
Definition vals_ok (t : ltable) : Prop := forall k v, lt_get k t = Some (Some v) -> v <> [].

Lemma vals_ok_nil : vals_ok [].
Proof. intros k v H. discriminate. Qed.

(* reads: under vals_ok a memstore is one more table on top of the stack *)
Lemma store_eff t k (x : option mval) : vals_ok t ->
  match lt_get k t with Some (Some v) => Some v | Some None => None | None => eff x end
  = eff (orelse (lt_get k t) x).
Proof.
  intros H. destruct (lt_get k t) as [[[|b r]|]|] eqn:E; try reflexivity. elim (H _ _ E). reflexivity.
Qed.

Lemma db_get_stack s k : vals_ok (d_rd s) -> vals_ok (d_wr s) ->
  db_get s k = eff (orelse (lt_get k (d_wr s)) (orelse (lt_get k (d_rd s)) (tables_get (d_tables s) k))).
Proof.
  intros Hr Hw. rewrite <- (store_eff (d_wr s)), <- (store_eff (d_rd s)) by assumption. reflexivity.
Qed.

Lemma db_get_tables d d' k : d_rd d' = d_rd d -> d_wr d' = d_wr d ->
  eff (tables_get (d_tables d') k) = eff (tables_get (d_tables d) k) -> db_get d' k = db_get d k.
Proof.
  intros Er Ew Ht. unfold db_get. rewrite Er, Ew. destruct (lt_get k (d_wr d)) as [[v|]|]; try reflexivity.
  destruct (lt_get k (d_rd d)) as [[v|]|]; try reflexivity. exact Ht.
Qed.

Lemma db_get_wr_set s k' v k :
  db_get (mkDb (d_tables s) (d_rd s) (lt_set k' v (d_wr s)) (d_gen s)) k
  = if beqb k k' then v else db_get s k.
Proof.
  unfold db_get. cbn [d_wr d_rd d_tables]. rewrite lt_get_set.
  destruct (beqb k k'); [destruct v|]; reflexivity.
Qed.

Definition valid_put (k v : option bytes) : bool :=
  match k, v with Some (_ :: _), Some (_ :: _) => true | _, _ => false end.

Lemma db_put_eq s k v :
  db_put s k v =
  if valid_put k v
  then (mkDb (d_tables s) (d_rd s) (lt_set (match k with Some b => b | None => [] end) v (d_wr s)) (d_gen s), true)
  else (s, false).
Proof. destruct k as [[|kb kr]|], v as [[|vb vr]|]; reflexivity. Qed.

Lemma valid_put_val k v : valid_put k v = true -> v <> Some [].
Proof. intros H ->. destruct k as [[|kb kr]|]; discriminate. Qed.

(* C17 *)
Theorem error_has_no_effect (s : db) (k v : option bytes) : snd (db_put s k v) = false -> fst (db_put s k v) = s.
Proof. rewrite db_put_eq. destruct (valid_put k v); [discriminate|reflexivity]. Qed.
Theorem put_rejects_exactly (s : db) (k v : option bytes) : snd (db_put s k v) = valid_put k v.
Proof. rewrite db_put_eq. destruct (valid_put k v); reflexivity. Qed.

(* the fourth clause of Inv: the read store is the memstore that was flushed last *)
Definition rd_agrees (rd : ltable) (ts : list (N * ltable)) : Prop :=
  forall k v, lt_get k rd = Some v -> eff (tables_get ts k) = eff (Some v).

Definition Inv (s : db) : Prop :=
  Forall (fun t => lsorted (snd t)) (d_tables s) /\ lsorted (d_rd s) /\ lsorted (d_wr s)
  /\
     (forall k v, lt_get k (d_rd s) = Some v -> eff (tables_get (d_tables s) k) = eff (Some v))
  /\ vals_ok (d_rd s) /\ vals_ok (d_wr s).

Lemma rd_absorbed rd ts k : rd_agrees rd ts ->
  eff (orelse (lt_get k rd) (tables_get ts k)) = eff (tables_get ts k).
Proof. intros H. destruct (lt_get k rd) eqn:E; [symmetry; apply H, E|reflexivity]. Qed.

(* rotation in two halves, which the concurrent machine (Db/Conc.v) runs as separate actions *)
Definition swap (s : db) : db := mkDb (d_tables s) (d_wr s) [] (d_gen s).

Definition install (d : db) (w : ltable) : db :=
  match w with
  | [] => d
  | _ => mkDb (d_tables d ++ [(d_gen d + 1, w)]) (d_rd d) (d_wr d) (d_gen d + 1)
  end.

Lemma db_rotate_eq s : db_rotate s = install (swap s) (d_wr s).
Proof. unfold db_rotate, install, swap. destruct (d_wr s); reflexivity. Qed.

Lemma install_rd d w : d_rd (install d w) = d_rd d.
Proof. destruct w; reflexivity. Qed.

Lemma install_wr d w : d_wr (install d w) = d_wr d.
Proof. destruct w; reflexivity. Qed.

Lemma install_tables d w : exists new, d_tables (install d w) = d_tables d ++ new.
Proof. destruct w; [exists []; symmetry; apply app_nil_r|eexists; reflexivity]. Qed.

Lemma install_get d w k : tables_get (d_tables (install d w)) k = orelse (lt_get k w) (tables_get (d_tables d) k).
Proof.
  destruct w; [reflexivity|]. apply tables_get_snoc.
Qed.

Lemma install_agrees d w : rd_agrees w (d_tables (install d w)).
Proof. intros k v H. rewrite install_get, H. reflexivity. Qed.

Lemma install_sorted d w : lsorted w -> stack_sorted (d_tables d) -> stack_sorted (d_tables (install d w)).
Proof.
  intros Hw Hd. destruct w; [exact Hd|]. apply Forall_app. split; [exact Hd|]. constructor; [exact Hw|constructor].
Qed.

(* the read store that the swap drops said only what the tables say; the installed table lies under
   the store it was written from *)
Lemma db_get_swap s k : vals_ok (d_rd s) -> rd_agrees (d_rd s) (d_tables s) -> db_get (swap s) k = db_get s k.
Proof.
  intros Hr H. unfold db_get. cbn [swap d_tables d_rd d_wr lt_get].
  destruct (lt_get k (d_wr s)) as [[v|]|]; try reflexivity.
  symmetry. etransitivity; [apply (store_eff (d_rd s) k _ Hr)|apply rd_absorbed, H].
Qed.

Lemma db_get_install d k : db_get (install d (d_rd d)) k = db_get d k.
Proof.
  unfold db_get. rewrite install_rd, install_wr, install_get.
  destruct (lt_get k (d_rd d)); reflexivity.
Qed.

Lemma wr_set_ok k v t : v <> Some [] -> lsorted t -> vals_ok t ->
  lsorted (lt_set k v t) /\ vals_ok (lt_set k v t).
Proof.
  intros Hv Hs Ht. split; [apply lt_set_sorted, Hs|].
  intros k' x H. rewrite lt_get_set in H. destruct (beqb k' k); [|exact (Ht _ _ H)].
  injection H as ->. intros ->. exact (Hv eq_refl).
Qed.

Lemma inv_empty : Inv db_empty.
Proof.
  unfold Inv, db_empty. simpl. repeat split; try apply lsorted_nil; try apply vals_ok_nil.
  - constructor.
  - intros k v H. discriminate.
Qed.

Lemma inv_wr_set s k v : v <> Some [] -> Inv s ->
  Inv (mkDb (d_tables s) (d_rd s) (lt_set k v (d_wr s)) (d_gen s)).
Proof.
  intros Hv (Hts & Hrd & Hwr & Habs & Hvr & Hvw). destruct (wr_set_ok k v _ Hv Hwr Hvw).
  repeat split; assumption.
Qed.

Lemma inv_put s k v : Inv s -> Inv (fst (db_put s k v)).
Proof.
  intros Hinv. rewrite db_put_eq. destruct (valid_put k v) eqn:E; [|exact Hinv].
  apply inv_wr_set; [apply (valid_put_val k), E|exact Hinv].
Qed.

Lemma inv_delete s k : Inv s -> Inv (db_delete s k).
Proof. apply inv_wr_set. discriminate. Qed.

Lemma inv_rotate s : Inv s -> Inv (db_rotate s).
Proof.
  intros (Hts & Hrd & Hwr & Habs & Hvr & Hvw). rewrite db_rotate_eq. unfold Inv.
  rewrite install_rd, install_wr.
  repeat split; auto using lsorted_nil, vals_ok_nil. 
  - apply install_sorted; assumption.
  - apply install_agrees.
Qed.

Lemma inv_compact c sizes s : Inv s -> Inv (fst (db_compact c sizes s)).
Proof.
  intros Hinv. rewrite db_compact_eq. destruct (_ <=? _); [exact Hinv|].
  destruct Hinv as (Hts & Hrd & Hwr & Habs & Hvr & Hvw). repeat split; auto; cbn [fst d_tables d_rd].
  - apply replace_run_sorted; [apply merged_sorted|exact Hts].
  - intros k v H. rewrite replace_eff; [apply Habs, H|apply selection_seg|exact Hts].
Qed.

Lemma inv_reopen s : Inv s -> Inv (db_reopen s).
Proof.
  intros Hinv. apply inv_rotate in Hinv. destruct Hinv as (Hts & _).
  repeat split; auto; try apply lsorted_nil; try apply vals_ok_nil. discriminate.
Qed.

Lemma inv_step s st : Inv s -> Inv (fst (db_step s st)).
Proof.
  intros Hinv. destruct st as [k v|k|k| |c sizes|]; simpl; rewrite ?fst_let.
  - apply inv_put, Hinv.
  - apply inv_delete, Hinv.
  - exact Hinv.
  - apply inv_rotate, Hinv.
  - apply inv_compact, Hinv.
  - apply inv_reopen, Hinv.
Qed.

Lemma compact_reads c sizes s k : stack_sorted (d_tables s) -> db_get (fst (db_compact c sizes s)) k = db_get s k.
Proof.
  intros Hts. rewrite db_compact_eq. destruct (_ <=? _); [reflexivity|].
  apply db_get_tables; [reflexivity..|]. apply replace_eff; [apply selection_seg|exact Hts].
Qed.

(* C06, also for runs that exclude the oldest table *)
Theorem compaction_preserves_reads (c : cfg) (sizes : list N) (s : db) (k : bytes) :
  Inv s -> db_get (fst (db_compact c sizes s)) k = db_get s k.
Proof. intros (Hts & _). apply compact_reads, Hts. Qed.

(* C17 *)
Theorem flush_preserves_reads (s : db) (k : bytes) : Inv s -> db_get (db_rotate s) k = db_get s k.
Proof.
  intros (_ & _ & _ & Habs & Hvr & Hvw). rewrite db_rotate_eq. change (d_wr s) with (d_rd (swap s)).
  rewrite db_get_install. apply db_get_swap; assumption.
Qed.

Theorem reopen_preserves_reads (s : db) (k : bytes) : Inv s -> db_get (db_reopen s) k = db_get s k.
Proof.
  intros Hinv. rewrite <- (flush_preserves_reads s k Hinv).
  pose proof (inv_rotate s Hinv) as Hrot. cbv [db_reopen]. rewrite db_rotate_eq in Hrot |- *.
  destruct Hrot as (_ & _ & _ & Habs & Hvr & Hvw).
  rewrite !db_get_stack by (assumption || apply vals_ok_nil). rewrite install_wr.
  cbn [swap d_tables d_rd d_wr lt_get orelse]. symmetry. apply rd_absorbed. exact Habs.
Qed.

(* s0 satisfies the first four clauses of Inv but holds an empty value in the read store *)
Remark inv_needs_vals_ok :
  let s0 := mkDb [] [([1], Some [])] [] 0 in
  (Forall (fun t => lsorted (snd t)) (d_tables s0) /\ lsorted (d_rd s0) /\ lsorted (d_wr s0)
   /\ (forall k v, lt_get k (d_rd s0) = Some v -> eff (tables_get (d_tables s0) k) = eff (Some v)))
  /\ db_get s0 [1] = Some [] /\ db_get (db_rotate s0) [1] = None /\ db_get (db_reopen s0) [1] = None.
Proof.
  simpl. repeat split; try reflexivity.
  - constructor.
  - constructor; constructor.
  - constructor.
  - intros k v. destruct (beqb k [1]); [|discriminate]. intros H. inversion H; subst. reflexivity.
Qed.

Definition smap := bytes -> option bytes.
Definition s_empty : smap := fun _ => None.
Definition s_set (m : smap) (k : bytes) (v : option bytes) : smap := fun k' => if beqb k' k then v else m k'.

Definition spec_step (m : smap) (st : dstep) : smap * dout :=
  match st with
  | SPut k v =>
      if valid_put k v then (s_set m (match k with Some b => b | None => [] end) v, OPut true) else (m, OPut false)
  | SDelete k => (s_set m (match k with Some b => b | None => [] end) None, ODone)
  | SGet k => (m, OGet (m k))
  | SRotate => (m, ODone)
  | SCompact _ _ => (m, ODone)
  | SReopen => (m, ODone)
  end.

Fixpoint spec_run (m : smap) (steps : list dstep) : smap * list dout :=
  match steps with
  | [] => (m, [])
  | st :: r => let '(m', o) := spec_step m st in let '(m'', os) := spec_run m' r in (m'', o :: os)
  end.

Definition out_same (a b : dout) : Prop :=
  match a, b with
  | OCompact _, ODone => True
  | x, y => x = y
  end.

Definition refines (s : db) (m : smap) : Prop := (forall k, db_get s k = m k) /\ Inv s.

Lemma step_refines s m st : refines s m ->
  refines (fst (db_step s st)) (fst (spec_step m st)) /\ out_same (snd (db_step s st)) (snd (spec_step m st)).
Proof.
  intros [Hget Hinv]. split; [split; [|apply inv_step, Hinv]|].
  - intros k0. destruct st as [k v|k|k| |c sizes|]; simpl; rewrite ?fst_let.
    + rewrite db_put_eq. destruct (valid_put k v); [|apply Hget].
      simpl. rewrite db_get_wr_set, Hget. reflexivity.
    + unfold db_delete. rewrite db_get_wr_set, Hget. reflexivity.
    + apply Hget.
    + rewrite flush_preserves_reads by exact Hinv. apply Hget.
    + rewrite compaction_preserves_reads by exact Hinv. apply Hget.
    + rewrite reopen_preserves_reads by exact Hinv. apply Hget.
  - destruct st as [k v|k|k| |c sizes|]; simpl; try reflexivity.
    + rewrite db_put_eq. destruct (valid_put k v); reflexivity.
    + rewrite Hget. reflexivity.
    + destruct (db_compact c sizes s). exact I.
Qed.

Lemma db_run_cons s st r :
  db_run s (st :: r)
  = (fst (db_run (fst (db_step s st)) r), snd (db_step s st) :: snd (db_run (fst (db_step s st)) r)).
Proof. simpl. destruct (db_step s st) as [s' o]. simpl. destruct (db_run s' r). reflexivity. Qed.

Lemma spec_run_cons m st r :
  spec_run m (st :: r)
  = (fst (spec_run (fst (spec_step m st)) r), snd (spec_step m st) :: snd (spec_run (fst (spec_step m st)) r)).
Proof. simpl. destruct (spec_step m st) as [m' o]. simpl. destruct (spec_run m' r). reflexivity. Qed.

Lemma run_refines steps : forall s m, refines s m ->
  Forall2 out_same (snd (db_run s steps)) (snd (spec_run m steps))
  /\ refines (fst (db_run s steps)) (fst (spec_run m steps)).
Proof.
  induction steps as [|st steps IH]; intros s m Href; [split; [constructor|exact Href]|].
  rewrite db_run_cons, spec_run_cons. cbn [fst snd].
  destruct (step_refines s m st Href) as [Href' Hout]. destruct (IH _ _ Href') as [Houts Hfin].
  split; [constructor; assumption|exact Hfin].
Qed.

Lemma refines_empty : refines db_empty s_empty.
Proof. split; [intros k; reflexivity|apply inv_empty]. Qed.

(* C01 *)
Theorem db_refines_map (steps : list dstep) :
  let '(s, outs) := db_run db_empty steps in
  let '(m, souts) := spec_run s_empty steps in
  Forall2 out_same outs souts /\ (forall k, db_get s k = m k) /\ Inv s.
Proof.
  pose proof (run_refines steps db_empty s_empty refines_empty) as [Houts [Hget Hinv]].
  destruct (db_run db_empty steps) as [s outs]. destruct (spec_run s_empty steps) as [m souts].
  simpl in *. auto.
Qed.

(* C06 corollary: a deleted key stays deleted while no later step puts it again *)
Definition touches (k : bytes) (st : dstep) : bool :=
  match st with
  | SPut (Some k') _ => beqb k' k
  | _ => false
  end.

Lemma spec_run_app a : forall m b,
  fst (spec_run m (a ++ b)) = fst (spec_run (fst (spec_run m a)) b).
Proof.
  induction a as [|st a IH]; intros m b; [reflexivity|].
  rewrite <- app_comm_cons, !spec_run_cons. apply IH.
Qed.

Lemma spec_step_untouched k st m : touches k st = false -> m k = None -> fst (spec_step m st) k = None.
Proof.
  intros Hst Hm. destruct st as [k' v|k'|k'| |c sizes|]; simpl; try exact Hm.
  - destruct (valid_put k' v) eqn:Hv; [|exact Hm].
    destruct k' as [k'|]; [|discriminate]. simpl in *. unfold s_set. rewrite beqb_sym, Hst. exact Hm.
  - unfold s_set. destruct (beqb k _); [reflexivity|exact Hm].
Qed.

Lemma spec_untouched k after : forall m,
  forallb (fun st => negb (touches k st)) after = true -> m k = None -> fst (spec_run m after) k = None.
Proof.
  induction after as [|st after IH]; intros m Hall Hm; [exact Hm|].
  simpl in Hall. apply andb_true_iff in Hall. destruct Hall as [Hst Hall]. apply negb_true_iff in Hst.
  rewrite spec_run_cons. apply IH; [exact Hall|]. apply spec_step_untouched; assumption.
Qed.

Corollary deleted_stays_deleted (before after : list dstep) (k : bytes) :
  forallb (fun st => negb (touches k st)) after = true ->
  db_get (fst (db_run db_empty (before ++ SDelete (Some k) :: after))) k = None.
Proof.
  intros Hall.
  destruct (run_refines (before ++ SDelete (Some k) :: after) db_empty s_empty refines_empty) as [_ [Hget _]].
  rewrite Hget, spec_run_app, spec_run_cons. apply spec_untouched; [exact Hall|].
  simpl. unfold s_set. rewrite beqb_refl. reflexivity.
Qed.

(* the case of defect F-C06a: a run that excludes the oldest table, so that the merged table must keep
   the tombstone of key 1 to go on hiding the value in table 1 *)
Example compaction_example :
  let steps := [SPut (Some [1]) (Some [10]); SPut (Some [2]) (Some [20]); SRotate;
                SDelete (Some [1]); SPut (Some [3]) (Some [30]); SRotate;
                SPut (Some [3]) (Some [31]); SRotate;
                SCompact (mkCfg 1 500 100) [900; 100; 100]; SGet [1]; SGet [2]; SGet [3]; SReopen; SGet [1]] in
  snd (db_run db_empty steps)
  = [OPut true; OPut true; ODone; ODone; OPut true; ODone; OPut true; ODone;
     OCompact [2; 3]; OGet None; OGet (Some [20]); OGet (Some [31]); ODone; OGet None]
  /\ map fst (d_tables (fst (db_run db_empty steps))) = [1; 2].
Proof. vm_compute. split; reflexivity. Qed.

Print Assumptions flood_fill_contiguous.
Print Assumptions flood_fill_props.
Print Assumptions inv_step.
Print Assumptions compaction_preserves_reads.
Print Assumptions flush_preserves_reads.
Print Assumptions reopen_preserves_reads.
Print Assumptions error_has_no_effect.
Print Assumptions put_rejects_exactly.
Print Assumptions db_refines_map.
Print Assumptions deleted_stays_deleted.
Print Assumptions compaction_example.
