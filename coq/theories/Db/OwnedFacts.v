(* Consequences of linearizability used by the C18 check: a Get of a key that only one goroutine writes
   returns what that goroutine's own operations left there, and the linearization keeps each
   goroutine's program order. *)
From GoSST Require Import Base.Bytes Base.Order Db.Conc Db.ConcFacts.
Local Open Scope N_scope.

Definition writes_key (o : cop) (k : bytes) : bool :=
  match o with
  | CGet _ => false
  | CPut k' v => put_ok k' v && beqb (okey k') k
  | CDel k' => beqb (okey k') k
  end.

Definition only_writer (t : N) (k : bytes) (l : list (N * cop * cres)) : Prop :=
  forall t' o r, In (t', o, r) l -> writes_key o k = true -> t' = t.

(* [replay] of t's own operations on kv_empty, spelled out *)
Definition own_view (t : N) (k : bytes) (l : list (N * cop * cres)) : option bytes :=
  fold_left (fun m e => fst (kv_step m (snd (fst e)))) (filter (fun e => fst (fst e) =? t) l) kv_empty k.

Lemma legal_get_reads_replay pre : forall m t' k v post,
  legal m (pre ++ (t', CGet k, RGet v) :: post) -> v = replay pre m k.
Proof.
  induction pre as [|[[t0 o0] r0] pre IH]; intros m t' k v post Hleg.
  - simpl in Hleg. destruct Hleg as [Hres _]. inversion Hres. reflexivity.
  - simpl in Hleg. destruct Hleg as [_ Hrest]. simpl. eapply IH. exact Hrest.
Qed.

Lemma kv_step_at m o k :
  fst (kv_step m o) k = if writes_key o k then match o with CPut _ v => v | _ => None end else m k.
Proof.
  destruct o as [k0|k0 v0|k0]; simpl; [reflexivity| |]; unfold kv_set; rewrite beqb_sym.
  - destruct (put_ok k0 v0); reflexivity.
  - reflexivity.
Qed.

(* at key k, replaying a sequence is replaying any sub-selection that keeps all the writers of k *)
Lemma replay_filter_at_key (p : N * cop * cres -> bool) k l :
  Forall (fun e => writes_key (snd (fst e)) k = true -> p e = true) l ->
  forall m m', m k = m' k -> replay l m k = replay (filter p l) m' k.
Proof.
  induction 1 as [|e l He _ IH]; intros m m' Hk; simpl; [exact Hk|].
  destruct (p e) eqn:Hp; simpl; apply IH; rewrite !kv_step_at.
  - rewrite Hk. reflexivity.
  - destruct (writes_key (snd (fst e)) k); [|exact Hk]. specialize (He eq_refl). congruence.
Qed.

Lemma legal_get_own m t k pre t' v post :
  legal m (pre ++ (t', CGet k, RGet v) :: post) -> only_writer t k pre ->
  v = replay (filter (fun e => fst (fst e) =? t) pre) m k.
Proof.
  intros Hleg Honly. rewrite (legal_get_reads_replay pre m t' k v post Hleg).
  apply replay_filter_at_key; [|reflexivity].
  apply Forall_forall. intros [[t0 o0] r0] Hin Hw. apply N.eqb_eq, (Honly t0 o0 r0 Hin Hw).
Qed.

(* any thread's Get of k; in particular t reads its own last write, whatever the other threads, the
   flusher and the compactor do in between *)
Theorem owned_key_reads_own_writes (acts : list action) (s : cstate) (t : N) (k : bytes) :
  crun c_init acts = Some s ->
  only_writer t k (lin_points c_init acts) ->
  forall pre t' v post, lin_points c_init acts = pre ++ (t', CGet k, RGet v) :: post ->
  v = own_view t k pre.
Proof.
  intros Hrun Honly pre t' v post Heq.
  pose proof (lin_points_legal acts s Hrun) as Hleg. rewrite Heq in Hleg.
  apply (legal_get_own _ _ _ _ _ _ _ Hleg).
  intros t0 o0 r0 Hin. apply (Honly t0 o0 r0). rewrite Heq. apply in_or_app. left. exact Hin.
Qed.

Fixpoint invoked_by (t : N) (s : cstate) (acts : list action) : list cop :=
  match acts with
  | [] => []
  | a :: rest =>
      match cstep s a with
      | None => []
      | Some s' =>
          match a with
          | AInv t' o => if t' =? t then o :: invoked_by t s' rest else invoked_by t s' rest
          | _ => invoked_by t s' rest
          end
      end
  end.

Definition is_prefix {A} (a b : list A) : Prop := exists c, b = a ++ c.

(* program_order_kept spells this out *)
Definition ops_of (t : N) (l : list (N * cop * cres)) : list cop :=
  map (fun e => snd (fst e)) (filter (fun e => fst (fst e) =? t) l).

Definition pend_ph (p : phase) : list cop :=
  match p with Invoked o => [o] | GotTables k _ => [CGet k] | _ => [] end.
Definition pending (t : N) (s : cstate) : list cop := pend_ph (ph_get t (c_phase s)).

Definition inv_of (t : N) (a : action) : list cop :=
  match a with AInv t' o => if t' =? t then [o] else [] | _ => [] end.

Lemma ops_of_app t l1 l2 : ops_of t (l1 ++ l2) = ops_of t l1 ++ ops_of t l2.
Proof. unfold ops_of. rewrite filter_app, map_app. reflexivity. Qed.

Lemma invoked_by_cons t s a acts s' : cstep s a = Some s' ->
  invoked_by t s (a :: acts) = inv_of t a ++ invoked_by t s' acts.
Proof.
  intros H. simpl. rewrite H. destruct a as [t0 o|t0|t0|t0|t0| | |c sizes| ]; try reflexivity.
  simpl. destruct (t0 =? t); reflexivity.
Qed.

Lemma pending_set t t0 s p' :
  pending t (with_phase s t0 p') = if t0 =? t then pend_ph p' else pending t s.
Proof. unfold pending. simpl. rewrite ph_get_set, (N.eqb_sym t t0). destruct (t0 =? t); reflexivity. Qed.

(* one step: what t had pending and now invokes is what it linearizes and still has pending *)
Lemma step_pending t s a s' : cstep s a = Some s' ->
  pending t s ++ inv_of t a = ops_of t (ev_of a s') ++ pending t s'.
Proof.
  intros Hstep. apply cstep_CStep in Hstep. destruct Hstep as [t0 ? Hp|t0 ? ? ? ? Hp|t0 ? Hp|t0 ? ? Hp|t0 ? ? Hp|a s' Hb].
  6: { destruct Hb; apply app_nil_r. }
  all: rewrite pending_set; unfold ev_of, inv_of, ops_of, pending; simpl;
    rewrite ?ph_get_set, ?N.eqb_refl; simpl.
  all: destruct (N.eqb_spec t0 t) as [->|]; [rewrite Hp; reflexivity|apply app_nil_r].
Qed.

(* from any state s: [pending t s] is the operation t has in flight before its linearization point *)
Lemma program_order_from t acts : forall s,
  is_prefix (ops_of t (lin_points s acts)) (pending t s ++ invoked_by t s acts).
Proof.
  induction acts as [|a acts IH]; intros s.
  - exists (pending t s ++ []). reflexivity.
  - destruct (cstep s a) as [s'|] eqn:Hstep.
    + rewrite (lin_points_cons _ _ _ _ Hstep), (invoked_by_cons t _ _ _ _ Hstep).
      rewrite ops_of_app.
      destruct (IH s') as [c Hc]. exists c.
      rewrite app_assoc, (step_pending t _ _ _ Hstep), <- !app_assoc. f_equal. exact Hc.
    + simpl. rewrite Hstep. eexists. reflexivity.
Qed.

Theorem program_order_kept (acts : list action) (t : N) :
  is_prefix (map (fun e => snd (fst e)) (filter (fun e => fst (fst e) =? t) (lin_points c_init acts)))
            (invoked_by t c_init acts).
Proof.
  exact (program_order_from t acts c_init).
Qed.

Print Assumptions owned_key_reads_own_writes.
Print Assumptions program_order_kept.
