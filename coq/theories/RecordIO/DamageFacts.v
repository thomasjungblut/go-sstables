(* C12: altering a byte of a record header makes reading that record fail.  Proved, without any
   probabilistic assumption, for every alteration that keeps the byte's continuation bit, every
   alteration of the nil flag, and EVERY alteration of a byte of the stored checksum varint, whatever
   follows the header (header_byte_alteration_detected_ext: crc32c_one_byte before the checksum,
   canonicity of readMinimalUvarint within it).  An alteration elsewhere that moves a varint
   boundary is not covered. *)
From GoSST Require Import Base.Bytes Base.ListFacts Base.Varint Base.VarintFacts Base.Crc Base.CrcFacts.
From GoSST Require Import RecordIO.Format RecordIO.FormatFacts RecordIO.SeqReader RecordIO.MmapReader RecordIO.WriteReadFacts.
From Coq Require Import Lia.
Local Open Scope N_scope.

Definition alter (l : bytes) (j : nat) (v : N) : bytes := firstn j l ++ v :: skipn (S j) l.

(* keeping the continuation bit keeps the varint boundaries where they are *)
Definition same_framing (old v : N) : Prop := (old <? 128) = (v <? 128).

Lemma alter_0 b t v : alter (b :: t) 0 v = v :: t.
Proof. reflexivity. Qed.
Lemma alter_S b t j v : alter (b :: t) (S j) v = b :: alter t j v.
Proof. reflexivity. Qed.

Lemma alter_length l j v : (j < length l)%nat -> length (alter l j v) = length l.
Proof.
  revert j. induction l as [|b t IH]; intros j Hj; cbn [length] in *; [lia|].
  destruct j as [|j]; [reflexivity|]. rewrite alter_S. cbn [length]. rewrite IH by lia. reflexivity.
Qed.

Lemma alter_cut (l : bytes) v : forall j, (j < length l)%nat ->
  exists a old b, nth j l 0 = old /\ l = a ++ old :: b /\ alter l j v = a ++ v :: b.
Proof.
  intros j Hj. exists (firstn j l), (nth j l 0), (skipn (S j) l).
  split; [reflexivity|]. split; [|reflexivity]. revert j Hj.
  induction l as [|b t IH]; intros j Hj; cbn [length] in *; [lia|].
  destruct j as [|j]; [reflexivity|]. cbn [firstn nth skipn app]. f_equal. apply IH. lia.
Qed.

Lemma alter_same l j v : (j < length l)%nat -> alter l j v = l -> v = nth j l 0.
Proof.
  intros Hj. destruct (alter_cut l v j Hj) as (a & old & b & -> & -> & ->).
  intro H. apply app_inv_head in H. injection H as H. exact H.
Qed.

Lemma alter_bytes l : forall j v, Forall (fun x => x < 256) l -> v < 256 -> Forall (fun x => x < 256) (alter l j v).
Proof.
  induction l as [|b t IH]; intros j v Hl Hv; [destruct j; repeat constructor; exact Hv|].
  apply Forall_cons_iff in Hl. destruct Hl as [Hb Ht].
  destruct j as [|j]; [rewrite alter_0|rewrite alter_S]; auto.
Qed.

Lemma alter_app a b j v : (j < length (a ++ b))%nat ->
  ((j < length a)%nat /\ alter (a ++ b) j v = alter a j v ++ b /\ nth j (a ++ b) 0 = nth j a 0)
  \/ (exists j', j = (length a + j')%nat /\ (j' < length b)%nat
        /\ alter (a ++ b) j v = a ++ alter b j' v /\ nth j (a ++ b) 0 = nth j' b 0).
Proof.
  revert j. induction a as [|x a IH]; intros j Hj.
  - right. exists j. repeat split. exact Hj.
  - destruct j as [|j].
    + left. repeat split. apply Nat.lt_0_succ.
    + cbn [app length] in Hj. apply <- Nat.succ_lt_mono in Hj.
      destruct (IH j Hj) as [(H1 & H2 & H3)|(j' & H1 & H2 & H3 & H4)].
      * left. cbn [app length nth]. rewrite !alter_S, H2. repeat split; [apply le_n_S, H1|exact H3].
      * right. exists j'. subst j. cbn [app length nth]. rewrite alter_S, H3.
        repeat split; [exact H2|exact H4].
Qed.

Lemma alter_framed e j v : framed e = true -> (j < length e)%nat ->
  same_framing (nth j e 0) v -> framed (alter e j v) = true.
Proof.
  revert j. induction e as [|b t IH]; intros j Hf Hj Hs; [discriminate|].
  destruct j as [|j].
  - rewrite alter_0. cbn [nth] in Hs. unfold same_framing in Hs. cbn [framed] in *.
    rewrite <- Hs. exact Hf.
  - rewrite alter_S. cbn [nth length] in *. cbn [framed] in *.
    destruct (b <? 128).
    + destruct t; [cbn [length] in Hj; lia|discriminate].
    + apply IH; [exact Hf|lia|exact Hs].
Qed.

Lemma crc_alter l j v : Forall (fun x => x < 256) l -> (j < length l)%nat -> v < 256 ->
  v <> nth j l 0 -> crc32c (alter l j v) <> crc32c l.
Proof.
  intros Hl Hj Hv. destruct (alter_cut l v j Hj) as (a & old & b & -> & -> & ->).
  intro Hne. apply Forall_app in Hl. destruct Hl as [Ha Hl]. apply Forall_cons_iff in Hl.
  apply crc32c_one_byte; assumption || apply Hl.
Qed.

Lemma parse_hdr_inv l usz csz isnil n :
  parse_hdr l = Ok (usz, csz, isnil, n) ->
  exists e1 nb e2 e3 e4 l5,
    let pre := e1 ++ nb :: e2 ++ e3 in
    l = pre ++ e4 ++ l5
    /\ isnil = (nb =? 1)
    /\ n = lenN (pre ++ e4)
    /\ min_enc e1 magic /\ min_enc e2 usz /\ min_enc e3 csz /\ min_enc e4 (crc32c pre).
Proof.
  unfold parse_hdr. intro H.
  destruct (uv_dec_min l) as [[m l1]|er] eqn:D1; [|discriminate].
  destruct (N.eqb_spec m magic) as [->|Em]; cbn [negb] in H; [|discriminate].
  destruct l1 as [|nb l2]; [discriminate|].
  destruct (uv_dec_min l2) as [[u l3]|er] eqn:D2; [|discriminate].
  destruct (uv_dec_min l3) as [[c l4]|er] eqn:D3; [|discriminate].
  cbv zeta in H.
  destruct (uv_dec_min l4) as [[ex l5]|er] eqn:D4; [|discriminate].
  apply uv_dec_min_consumed in D1, D2, D3, D4.
  destruct D1 as (e1 & -> & C1), D2 as (e2 & -> & C2), D3 as (e3 & -> & C3), D4 as (e4 & -> & C4).
  exists e1, nb, e2, e3, e4, l5. cbv zeta.
  assert (EL : e1 ++ nb :: e2 ++ e3 ++ e4 ++ l5 = (e1 ++ nb :: e2 ++ e3) ++ e4 ++ l5)
    by (rewrite <- app_assoc, <- app_comm_cons, <- !app_assoc; reflexivity).
  rewrite EL in *. rewrite firstn_consumed in H.
  destruct (N.eqb_spec (crc32c (e1 ++ nb :: e2 ++ e3)) ex) as [<-|]; [|discriminate].
  injection H as -> -> <- <-.
  rewrite (app_assoc _ e4 l5), app_length, Nat.add_sub.
  split; [reflexivity|]. split; [reflexivity|]. split; [reflexivity|]. auto.
Qed.

Definition hframed (pre : bytes) : Prop :=
  exists m nb eu ec, pre = m ++ nb :: eu ++ ec /\ framed m = true /\ framed eu = true /\ framed ec = true.

Lemma parse_hframed pre ek rest r :
  hframed pre -> framed ek = true -> parse_hdr (pre ++ ek ++ rest) = Ok r -> crc32c pre = uv_val ek.
Proof.
  intros (m & nb & eu & ec & -> & Fm & Fu & Fc) Fk H. destruct r as [[[u c] b] n].
  apply parse_hdr_inv in H.
  destruct H as (e1 & nb' & e2 & e3 & e4 & l5 & E & _ & _ & [F1 _] & [F2 _] & [F3 _] & F4 & V4 & _).
  rewrite <- !app_assoc, <- !app_comm_cons, <- !app_assoc in E.
  apply framed_app_inj in E; [|assumption..]. destruct E as [<- E]. injection E as <- E.
  apply framed_app_inj in E; [|assumption..]. destruct E as [<- E].
  apply framed_app_inj in E; [|assumption..]. destruct E as [<- E].
  apply framed_app_inj in E; [|assumption..]. destruct E as [<- _]. symmetry. exact V4.
Qed.

Lemma alter_hframed m nb eu ec j v :
  framed m = true -> framed eu = true -> framed ec = true ->
  (j < length (m ++ nb :: eu ++ ec))%nat ->
  (j = length m \/ same_framing (nth j (m ++ nb :: eu ++ ec) 0) v) ->
  hframed (alter (m ++ nb :: eu ++ ec) j v).
Proof.
  intros Fm Fu Fc Hj Hfr.
  destruct (alter_app m (nb :: eu ++ ec) j v Hj) as [(J & -> & N1)|(j1 & -> & J & -> & N1)]; rewrite N1 in Hfr.
  { destruct Hfr as [->|Hfr]; [lia|]. exists (alter m j v), nb, eu, ec. auto using alter_framed. }
  destruct j1 as [|j2]; [exists m, v, eu, ec; auto|].
  destruct Hfr as [Hfr|Hfr]; [lia|]. cbn [nth length] in Hfr, J. rewrite alter_S.
  destruct (alter_app eu ec j2 v) as [(J2 & -> & N2)|(j3 & -> & J2 & -> & N2)]; [lia| |]; rewrite N2 in Hfr.
  - exists m, nb, (alter eu j2 v), ec. auto using alter_framed.
  - exists m, nb, eu, (alter ec j3 v). auto using alter_framed.
Qed.

(* an altered checksum varint: the field bytes are unchanged, so the computed checksum is the written
   one; a checksum varint that is accepted and holds that value consists of exactly the written bytes
   (canonicity), and those are as long as the altered ones *)
Lemma checksum_alteration_rejected usz csz isnil rest j v :
  usz < 2 ^ 64 -> csz < 2 ^ 64 ->
  let ek := uv_enc (crc32c (hdr_prefix usz csz isnil)) in
  (j < length ek)%nat -> v < 256 -> v <> nth j ek 0 ->
  exists e, parse_hdr (hdr_prefix usz csz isnil ++ alter ek j v ++ rest) = Err e.
Proof.
  intros Hu Hc ek Hj Hv Hne. rewrite hdr_prefix_eq, parse_hdr_fields by assumption.
  rewrite <- hdr_prefix_eq. fold ek.
  destruct (uv_dec_min (alter ek j v ++ rest)) as [[ex l5]|er] eqn:D; [|eauto].
  destruct (N.eqb_spec (crc32c (hdr_prefix usz csz isnil)) ex) as [<-|E]; [exfalso|eauto].
  apply uv_dec_min_consumed in D. destruct D as (e & El & _ & _ & Elen & Ecan). fold ek in Elen.
  apply (f_equal (firstn (length e))) in El.
  rewrite firstn_len_app, Elen, <- (alter_length ek j v Hj), firstn_len_app in El. subst e.
  apply Hne, alter_same, Ecan, alter_bytes; [exact Hj|apply uv_enc_bytes|exact Hv].
Qed.

(* index 3 is the nil flag (after the three marker bytes): a raw byte, any alteration allowed.
   Before the checksum the alteration keeps the framing, so the parser compares the checksum of
   the altered bytes with the stored one. *)
Theorem header_byte_alteration_detected_ext usz csz isnil rest j v :
  usz < 2 ^ 64 -> csz < 2 ^ 64 ->
  (j < length (hdr usz csz isnil))%nat -> v < 256 ->
  v <> nth j (hdr usz csz isnil) 0 ->
  (j = 3%nat \/ same_framing (nth j (hdr usz csz isnil) 0) v
   \/ (length (hdr_prefix usz csz isnil) <= j)%nat) ->
  exists e, parse_hdr (alter (hdr usz csz isnil) j v ++ rest) = Err e.
Proof.
  intros Hu Hc Hj Hv Hne Hfr. unfold hdr in *. cbv zeta in *.
  destruct (uv_enc_framed_val _ (hdr_crc_lt64 usz csz isnil)) as [Fk Vk].
  destruct (alter_app _ _ j v Hj) as [(J & -> & N1)|(j' & -> & J & -> & N1)];
    rewrite N1 in Hne; rewrite <- app_assoc; [|apply checksum_alteration_rejected; assumption].
  rewrite N1 in Hfr.
  destruct (parse_hdr _) as [r|e] eqn:HP; [exfalso|eauto].
  apply parse_hframed in HP; [| |exact Fk].
  - rewrite Vk in HP. revert HP. apply crc_alter; [apply hdr_prefix_bytes|assumption..].
  - apply (alter_hframed marker (if isnil then 1 else 0) (uv_enc usz) (uv_enc csz));
      try (apply uv_enc_framed_val; assumption); [reflexivity|exact J|].
    destruct Hfr as [H|[H|H]]; [left; exact H|right; exact H|destruct (Nat.lt_irrefl j (Nat.lt_le_trans _ _ _ J H))].
Qed.

Theorem header_byte_alteration_detected usz csz isnil rest j v :
  usz < 2 ^ 64 -> csz < 2 ^ 64 ->
  (j < length (hdr usz csz isnil))%nat -> v < 256 ->
  v <> nth j (hdr usz csz isnil) 0 ->
  (j = 3%nat \/ same_framing (nth j (hdr usz csz isnil) 0) v) ->
  exists e, parse_hdr (alter (hdr usz csz isnil) j v ++ rest) = Err e.
Proof.
  intros Hu Hc Hj Hv Hne Hfr. apply header_byte_alteration_detected_ext; try assumption.
  destruct Hfr; auto.
Qed.

Theorem checksum_bytes_alteration_detected usz csz isnil rest j v :
  usz < 2 ^ 64 -> csz < 2 ^ 64 ->
  (length (hdr_prefix usz csz isnil) <= j < length (hdr usz csz isnil))%nat ->
  v < 256 -> v <> nth j (hdr usz csz isnil) 0 ->
  exists e, parse_hdr (alter (hdr usz csz isnil ++ rest) j v) = Err e.
Proof.
  intros Hu Hc Hj Hv Hne.
  destruct Hj as [Hj1 Hj2].
  destruct (alter_app (hdr usz csz isnil) rest j v) as [(_ & -> & _)|(j0 & J0 & _)].
  - rewrite app_length. apply Nat.lt_lt_add_r, Hj2.
  - apply header_byte_alteration_detected_ext; auto.
  - clear - Hj2 J0. lia.
Qed.

Lemma window_altered usz csz isnil tail j v :
  (j < length (hdr usz csz isnil))%nat ->
  firstn 36 (alter (hdr usz csz isnil) j v ++ tail)
  = alter (hdr usz csz isnil) j v ++ firstn (36 - length (hdr usz csz isnil)) tail.
Proof.
  intros Hj. pose proof (hdr_length usz csz isnil) as HL.
  rewrite <- (alter_length _ j v Hj) in *. apply firstn_app_long. lia.
Qed.

Lemma hdr_err_readers (c : codec) pre l e :
  parse_hdr (firstn 36 l) = Err e ->
  (exists e', fst (read_next c (pre ++ l) (lenN pre)) = Err e')
  /\ (exists e', read_at c (pre ++ l) (lenN pre) = Err e').
Proof.
  intro H. split.
  - unfold read_next, parse_hdr_stream. rewrite skipn_lenN_app. cbv zeta. rewrite H.
    destruct e; try (eexists; reflexivity).
    + destruct (36 <=? lenN l); eexists; reflexivity.
    + destruct (36 <=? lenN l); eexists; reflexivity.
    + destruct (zero_tail l); eexists; reflexivity.
  - rewrite read_at_app. change (N.to_nat max_header_size) with 36%nat.
    destruct (firstn 36 l); [eexists; reflexivity|]. rewrite H. destruct e; eexists; reflexivity.
Qed.

Lemma altered_header_readers_ext (c : codec) pre usz csz isnil tail j v :
  usz < 2 ^ 64 -> csz < 2 ^ 64 ->
  (j < length (hdr usz csz isnil))%nat -> v < 256 ->
  v <> nth j (hdr usz csz isnil) 0 ->
  (j = 3%nat \/ same_framing (nth j (hdr usz csz isnil) 0) v
   \/ (length (hdr_prefix usz csz isnil) <= j)%nat) ->
  (exists e, fst (read_next c (pre ++ alter (hdr usz csz isnil) j v ++ tail) (lenN pre)) = Err e)
  /\ (exists e, read_at c (pre ++ alter (hdr usz csz isnil) j v ++ tail) (lenN pre) = Err e).
Proof.
  intros Hu Hc Hj Hv Hne Hfr.
  destruct (header_byte_alteration_detected_ext usz csz isnil
              (firstn (36 - length (hdr usz csz isnil)) tail) j v Hu Hc Hj Hv Hne Hfr) as [e He].
  rewrite <- window_altered in He by exact Hj. eapply hdr_err_readers, He.
Qed.

Corollary altered_header_read_next_ext (c : codec) pre usz csz isnil tail j v :
  usz < 2 ^ 64 -> csz < 2 ^ 64 ->
  (j < length (hdr usz csz isnil))%nat -> v < 256 ->
  v <> nth j (hdr usz csz isnil) 0 ->
  (j = 3%nat \/ same_framing (nth j (hdr usz csz isnil) 0) v
   \/ (length (hdr_prefix usz csz isnil) <= j)%nat) ->
  exists e, fst (read_next c (pre ++ alter (hdr usz csz isnil) j v ++ tail) (lenN pre)) = Err e.
Proof. intros. eapply proj1, altered_header_readers_ext; eassumption. Qed.

Corollary altered_header_read_at_ext (c : codec) pre usz csz isnil tail j v :
  usz < 2 ^ 64 -> csz < 2 ^ 64 ->
  (j < length (hdr usz csz isnil))%nat -> v < 256 ->
  v <> nth j (hdr usz csz isnil) 0 ->
  (j = 3%nat \/ same_framing (nth j (hdr usz csz isnil) 0) v
   \/ (length (hdr_prefix usz csz isnil) <= j)%nat) ->
  exists e, read_at c (pre ++ alter (hdr usz csz isnil) j v ++ tail) (lenN pre) = Err e.
Proof. intros. eapply proj2, altered_header_readers_ext; eassumption. Qed.

Corollary altered_header_read_next (c : codec) pre usz csz isnil tail j v :
  usz < 2 ^ 64 -> csz < 2 ^ 64 ->
  (j < length (hdr usz csz isnil))%nat -> v < 256 ->
  v <> nth j (hdr usz csz isnil) 0 ->
  (j = 3%nat \/ same_framing (nth j (hdr usz csz isnil) 0) v) ->
  exists e, fst (read_next c (pre ++ alter (hdr usz csz isnil) j v ++ tail) (lenN pre)) = Err e.
Proof. intros Hu Hc Hj Hv Hne Hfr. apply altered_header_read_next_ext; try assumption. destruct Hfr; auto. Qed.

Corollary altered_header_read_at (c : codec) pre usz csz isnil tail j v :
  usz < 2 ^ 64 -> csz < 2 ^ 64 ->
  (j < length (hdr usz csz isnil))%nat -> v < 256 ->
  v <> nth j (hdr usz csz isnil) 0 ->
  (j = 3%nat \/ same_framing (nth j (hdr usz csz isnil) 0) v) ->
  exists e, read_at c (pre ++ alter (hdr usz csz isnil) j v ++ tail) (lenN pre) = Err e.
Proof. intros Hu Hc Hj Hv Hne Hfr. apply altered_header_read_at_ext; try assumption. destruct Hfr; auto. Qed.

Definition id_codec : codec := mkCodec 0 (fun x => x) (fun x => Ok x).

(* F-C12a: the continuation bit set on the last checksum byte (header byte 10: 05 -> 85) with 0x00
   as the next byte (payload 00 01 02 03 04 05) is a two-byte encoding of the same checksum; taking
   it would shift the payload by one byte.  readMinimalUvarint refuses it as not minimal, in the
   parser and in both readers. *)
Example old_witness_now_rejected :
  parse_hdr (alter (hdr 6 0 false) 10 0x85 ++ [0; 1; 2; 3; 4; 5]) = Err HeaderChecksum.
Proof. vm_compute. reflexivity. Qed.

Example old_witness_readers_reject :
  let f := file_hdr 0 ++ alter (hdr 6 0 false) 10 0x85 ++ [0; 1; 2; 3; 4; 5] ++ enc_rec id_codec (Some [9]) in
  nth 10 (hdr 6 0 false) 0 = 0x05
  /\ read_at id_codec f 8 = Err HeaderChecksum
  /\ fst (read_next id_codec f 8) = Err HeaderChecksum.
Proof.
  cbv zeta. split; [vm_compute; reflexivity|]. split; vm_compute; reflexivity.
Qed.

Lemma parse_hdr_written l usz csz isnil n :
  parse_hdr l = Ok (usz, csz, isnil, n) ->
  Forall (fun b => b < 256) (firstn (N.to_nat n) l) ->
  exists nb rest,
    let pre := uv_enc magic ++ [nb] ++ uv_enc usz ++ uv_enc csz in
    l = (pre ++ uv_enc (crc32c pre)) ++ rest /\ isnil = (nb =? 1) /\ n = lenN (pre ++ uv_enc (crc32c pre)).
Proof.
  intros H HW. apply parse_hdr_inv in H.
  destruct H as (e1 & nb & e2 & e3 & e4 & l5 & El & Hnil & Hn
                 & (_ & _ & _ & C1) & (_ & _ & _ & C2) & (_ & _ & _ & C3) & (_ & _ & _ & C4)).
  rewrite app_assoc in El. rewrite Hn, El, firstn_lenN_app in HW.
  apply Forall_app in HW. destruct HW as [HW W4].
  apply Forall_app in HW. destruct HW as [W1 HW].
  apply Forall_cons_iff, proj2, Forall_app in HW. destruct HW as [W2 W3].
  apply C1 in W1. apply C2 in W2. apply C3 in W3. apply C4 in W4. subst e1 e2 e3 e4.
  exists nb, l5. auto.
Qed.

(* The converse: the only byte strings the reader accepts as a record header are the ones the writer
   produces for the same field values (readMinimalUvarint accepts one encoding per value).  [nb] is
   the nil-flag byte (a raw byte: the reader takes 1 as "nil" and everything else as "not nil"; the
   writer only writes 0 or 1, so for those the accepted bytes are literally [hdr usz csz isnil]). *)
Theorem parse_hdr_accepts_only_written_headers l usz csz isnil n :
  parse_hdr l = Ok (usz, csz, isnil, n) ->
  Forall (fun b => b < 256) (firstn (N.to_nat n) l) ->
  let nb := nth 3 l 0 in
  let pre := uv_enc magic ++ [nb] ++ uv_enc usz ++ uv_enc csz in
  firstn (N.to_nat n) l = pre ++ uv_enc (crc32c pre)
  /\ n = lenN (pre ++ uv_enc (crc32c pre))
  /\ isnil = (nb =? 1)
  /\ (nb <= 1 -> firstn (N.to_nat n) l = hdr usz csz isnil /\ n = lenN (hdr usz csz isnil)).
Proof.
  intros H HW. destruct (parse_hdr_written l usz csz isnil n H HW) as (b & rest & -> & -> & ->).
  rewrite firstn_lenN_app. cbv zeta. change (nth 3 _ 0) with b.
  split; [reflexivity|]. split; [reflexivity|]. split; [reflexivity|]. intro Hb.
  assert (Eb : (if b =? 1 then 1 else 0) = b).
  { assert (Hb' : b = 0 \/ b = 1) by lia. destruct Hb' as [-> | ->]; reflexivity. }
  unfold hdr, hdr_prefix. rewrite Eb. split; reflexivity.
Qed.

Corollary parse_hdr_accepted_is_hdr l usz csz isnil n :
  Forall (fun b => b < 256) l -> nth 3 l 0 <= 1 ->
  parse_hdr l = Ok (usz, csz, isnil, n) ->
  exists rest, l = hdr usz csz isnil ++ rest /\ n = lenN (hdr usz csz isnil).
Proof.
  intros HW Hb H. rewrite <- (firstn_skipn (N.to_nat n) l) in HW. apply Forall_app, proj1 in HW.
  destruct (parse_hdr_accepts_only_written_headers l usz csz isnil n H HW) as (_ & _ & _ & K).
  destruct (K Hb) as [K1 K2]. exists (skipn (N.to_nat n) l). split; [|exact K2].
  rewrite <- K1. symmetry. apply firstn_skipn.
Qed.

Print Assumptions header_byte_alteration_detected.
Print Assumptions altered_header_read_next.
Print Assumptions altered_header_read_at.
Print Assumptions parse_hdr_accepts_only_written_headers.
Print Assumptions parse_hdr_accepted_is_hdr.
Print Assumptions checksum_bytes_alteration_detected.
Print Assumptions header_byte_alteration_detected_ext.
Print Assumptions altered_header_read_next_ext.
Print Assumptions altered_header_read_at_ext.
Print Assumptions old_witness_now_rejected.
Print Assumptions old_witness_readers_reject.
