(* C04: SeekNext returns the first acceptable position (marker bytes and a complete record image) at or
   after the offset - for every byte string, every offset within the file and every scan-window size >= 4
   (seek_next_first; beyond the end of the file the model refuses the search with an error).  That the answer does
   not depend on the window size holds for every offset (seek_next_window). *)
From GoSST Require Import Base.Bytes Base.Order Base.ListFacts.
From GoSST Require Import RecordIO.Format RecordIO.FormatFacts RecordIO.Writer RecordIO.MmapReader RecordIO.WriteReadFacts.
From Coq Require Import Lia.
Local Open Scope N_scope.

Definition marker_at (f : bytes) (o : N) : bool := bytes_eqb (sub f o 3) marker.

Definition acceptable (c : codec) (f : bytes) (o : N) : bool :=
  marker_at f o && match read_at c f o with Ok _ => true | Err _ => false end.

(* 256 (not a byte) beyond the end *)
Definition byte_at (f : bytes) (o : N) : N := nth (N.to_nat o) f 256.

Lemma byte_at_skipn f o k : byte_at f (o + k) = nth (N.to_nat k) (skipn (N.to_nat o) f) 256.
Proof. unfold byte_at. rewrite nth_skipn. f_equal. lia. Qed.

Lemma byte_at_sub f o n k : k < lenN (sub f o n) -> byte_at (sub f o n) k = byte_at f (o + k).
Proof.
  intro Hk. rewrite byte_at_skipn, <- (firstn_skipn (N.to_nat n) (skipn (N.to_nat o) f)).
  symmetry. apply app_nth1. unfold lenN, sub in Hk. lia.
Qed.

Fixpoint bytes_at (f : bytes) (o : N) (m : bytes) : bool :=
  match m with
  | [] => true
  | b :: m' => (byte_at f o =? b) && bytes_at f (o + 1) m'
  end.

Lemma marker_at_bytes f o : marker_at f o = bytes_at f o marker.
Proof.
  pose proof (byte_at_skipn f o) as E. pose proof (E 0) as E0. rewrite N.add_0_r in E0.
  unfold marker_at, sub, marker. cbn [bytes_at]. rewrite <- N.add_assoc, E0, !E.
  change (N.to_nat 3) with 3%nat. change (N.to_nat (1 + 1)) with 2%nat. change (N.to_nat 1) with 1%nat.
  destruct (skipn (N.to_nat o) f) as [|a [|b [|x g]]]; cbn [firstn nth bytes_eqb list_eqb N.to_nat];
    rewrite ?andb_false_r, ?andb_true_r; reflexivity.
Qed.

Lemma marker_at_len f o : marker_at f o = true -> o + 3 <= lenN f.
Proof.
  unfold marker_at. rewrite bytes_eqb_eq. intros H.
  assert (HL : lenN (sub f o 3) = 3) by (rewrite H; reflexivity).
  rewrite lenN_sub in HL. lia.
Qed.

(* the marker cannot overlap itself: needed to continue three bytes after a failed trial read *)
Lemma marker_no_self_overlap f o : marker_at f o = true -> marker_at f (o + 1) = false /\ marker_at f (o + 2) = false.
Proof.
  rewrite !marker_at_bytes. unfold marker. cbn [bytes_at]. replace (o + 2) with (o + 1 + 1) by lia.
  intro H. apply andb_true_iff in H. destruct H as [_ H]. apply andb_true_iff in H. destruct H as [H1 H].
  apply andb_true_iff in H. destruct H as [H2 _]. apply N.eqb_eq in H1, H2. rewrite H1, H2. split; reflexivity.
Qed.

Lemma acceptable_marker c f o : acceptable c f o = true -> marker_at f o = true.
Proof. unfold acceptable. intros H. apply andb_true_iff in H. apply H. Qed.

Lemma acceptable_intro c f o r :
  marker_at f o = true -> read_at c f o = Ok r -> acceptable c f o = true.
Proof. unfold acceptable. intros Hm Hr. rewrite Hm, Hr. reflexivity. Qed.

Lemma not_acceptable_marker c f o : marker_at f o = false -> acceptable c f o = false.
Proof. unfold acceptable. intros H. rewrite H. reflexivity. Qed.

Lemma not_acceptable_read c f o e : read_at c f o = Err e -> acceptable c f o = false.
Proof. unfold acceptable. intros H. rewrite H. apply andb_false_r. Qed.

Lemma read_at_marker_at_end c f o :
  marker_at f o = true -> o + 3 = lenN f -> read_at c f o = Err WrappedEOF.
Proof.
  intros Hm Hlen. unfold read_at.
  assert (Hw : sub f o max_header_size = marker).
  { unfold marker_at in Hm. apply bytes_eqb_eq in Hm. rewrite <- Hm.
    unfold sub, max_header_size.
    assert (HL : length (skipn (N.to_nat o) f) = 3%nat).
    { rewrite skipn_length. unfold lenN in Hlen. lia. }
    rewrite !firstn_all2 by lia. reflexivity. }
  rewrite (proj2 (N.ltb_ge _ _)), Hw by lia. reflexivity.
Qed.

Lemma acceptable_bound c f o : acceptable c f o = true -> o + 4 <= lenN f.
Proof.
  intros H. pose proof (acceptable_marker _ _ _ H) as Hm.
  pose proof (marker_at_len _ _ Hm) as Hl.
  destruct (N.eq_dec (o + 3) (lenN f)) as [Heq|Hne]; [|lia].
  rewrite (not_acceptable_read _ _ _ _ (read_at_marker_at_end c f o Hm Heq)) in H. discriminate.
Qed.

(* what the search has established so far *)
Definition vacant (c : codec) (f : bytes) (a b : N) : Prop :=
  forall o, a <= o -> o < b -> acceptable c f o = false.

Lemma vacant_empty c f a : vacant c f a a.
Proof. intros o H1 H2. destruct (N.lt_irrefl _ (N.le_lt_trans _ _ _ H1 H2)). Qed.

Lemma vacant_app c f a b d : vacant c f a b -> vacant c f b d -> vacant c f a d.
Proof. intros H1 H2 o Ha Hd. destruct (N.lt_ge_cases o b); [apply H1|apply H2]; assumption. Qed.

Lemma vacant_no_marker c f o : marker_at f o = false -> vacant c f o (o + 1).
Proof. intros H o' H1 H2. replace o' with o by lia. apply not_acceptable_marker, H. Qed.

Lemma vacant_failed_read c f o e : marker_at f o = true -> read_at c f o = Err e -> vacant c f o (o + 3).
Proof.
  intros Hm Hr o' H1 H2. destruct (marker_no_self_overlap f o Hm) as [Hm1 Hm2].
  assert (Ho : o' = o \/ o' = o + 1 \/ o' = o + 2) by lia.
  destruct Ho as [-> | [-> | ->]];
    [exact (not_acceptable_read _ _ _ _ Hr)|apply not_acceptable_marker; assumption..].
Qed.

Lemma none_near_end c f a : lenN f - a <= 3 -> forall o, a <= o -> acceptable c f o = false.
Proof.
  intros Hn o Ho. destruct (acceptable c f o) eqn:E; [|reflexivity].
  apply acceptable_bound in E. lia.
Qed.

Lemma match_marker_spec f next seekLen m : forall ix,
  let win := sub f next seekLen in
  ix < lenN win ->
  match match_marker win (lenN win) ix m with
  | (ix', true) => lenN win <= ix + lenN m
  | (ix', false) =>
      ix' <= lenN win /\ if bytes_at f (next + ix) m then ix' = ix + lenN m else ix' - ix < lenN m
  end.
Proof.
  assert (Hc : forall b l, lenN (b :: l) = lenN l + 1) by (intros; unfold lenN; cbn [length]; lia).
  induction m as [|b m IH]; intros ix win Hix; cbn [match_marker bytes_at];
    [change (lenN []) with 0; lia|].
  fold (byte_at win ix). unfold win at 1. rewrite byte_at_sub, Hc by exact Hix.
  destruct (byte_at f (next + ix) =? b); cbn [andb]; [|lia].
  destruct (N.leb_spec (lenN win) (ix + 1)) as [H|H]; [lia|].
  specialize (IH (ix + 1) H). fold win in IH. rewrite <- N.add_assoc.
  destruct (match_marker win (lenN win) (ix + 1) m) as [ix' [|]]; [lia|].
  destruct IH as [H1 H2]. split; [exact H1|].
  destruct (bytes_at f (next + (ix + 1)) m); lia.
Qed.

Definition seek_post (c : codec) (f : bytes) (off : N) (res : res (N * option bytes)) : Prop :=
  match res with
  | Ok (o, r) =>
      off <= o /\ acceptable c f o = true /\ read_at c f o = Ok r
      /\ (forall o', off <= o' -> o' < o -> acceptable c f o' = false)
  | Err EOF => forall o', off <= o' -> acceptable c f o' = false
  | Err _ => False
  end.

(* a scan that stops at the very start of the window (j = 0) has run into the window's end within three bytes *)
Lemma scan_spec c f next seekLen :
  let win := sub f next seekLen in
  let n := lenN win in
  forall fuel i,
  i <= n -> (N.to_nat n - N.to_nat i < fuel)%nat -> vacant c f next (next + i) ->
  match scan fuel c f win next n i with
  | Found o r => seek_post c f next (Ok (o, r))
  | Cont j => j <= n /\ vacant c f next (next + j) /\ (j = 0 -> n <= 3)
  | ScanFuel => False
  end.
Proof.
  intros win n fuel. induction fuel as [|fu IH]; intros i Hi Hfuel Hinv; [destruct (Nat.nlt_0_r _ Hfuel)|].
  cbn [scan].
  destruct (N.leb_spec n i) as [Hend|Hend]; [split; [exact Hi|split; [exact Hinv|lia]]|].
  pose proof (match_marker_spec f next seekLen marker i Hend) as Hmm. fold win n in Hmm.
  rewrite <- marker_at_bytes in Hmm. change (lenN marker) with 3 in Hmm.
  destruct (match_marker win n i marker) as [ix [|]]; [split; [exact Hi|split; [exact Hinv|lia]]|].
  destruct Hmm as [Hix Hmm]. destruct (marker_at f (next + i)) eqn:Hm.
  - subst ix. replace (i + 3 - i) with 3 by (rewrite N.add_comm; symmetry; apply N.add_sub). cbv iota.
    destruct (read_at c f (next + i)) as [r|e] eqn:Hrd.
    + split; [apply N.le_add_r|]. split; [exact (acceptable_intro _ _ _ _ Hm Hrd)|]. split; [exact Hrd|exact Hinv].
    + apply IH; [exact Hix|lia|]. rewrite N.add_assoc.
      exact (vacant_app _ _ _ _ _ Hinv (vacant_failed_read _ _ _ _ Hm Hrd)).
  - rewrite (proj2 (N.ltb_lt _ _) Hmm). apply IH; [rewrite N.add_1_r; apply N.le_succ_l, Hend|lia|].
    rewrite N.add_assoc. exact (vacant_app _ _ _ _ _ Hinv (vacant_no_marker _ _ _ Hm)).
Qed.

(* a window of at least four bytes that yields no progress means that fewer than four bytes are left *)
Lemma seek_loop_spec c seekLen f off :
  4 <= seekLen ->
  forall fuel next,
  off <= next -> next <= lenN f -> (length f - N.to_nat next < fuel)%nat ->
  vacant c f off next ->
  seek_post c f off (seek_loop fuel c seekLen f next).
Proof.
  intros Hseek fuel.
  induction fuel as [|fu IH]; intros next Hoff Hnext Hfuel Hinv; [destruct (Nat.nlt_0_r _ Hfuel)|].
  cbn [seek_loop]. rewrite (proj2 (N.ltb_ge _ _) Hnext).
  set (win := sub f next seekLen).
  assert (Hw : lenN win <= lenN f - next /\ (lenN win <= 3 -> lenN f - next <= 3))
    by (unfold win; rewrite lenN_sub; lia).
  destruct Hw as [Hw1 Hw2].
  assert (Hall : lenN win <= 3 -> seek_post c f off (Err EOF)).
  { intros Hshort o' Ho'. destruct (N.lt_ge_cases o' next) as [H|H];
      [exact (Hinv o' Ho' H)|exact (none_near_end c f next (Hw2 Hshort) o' H)]. }
  destruct (N.eqb_spec (lenN win) 0) as [Hzero|Hzero]; [apply Hall; rewrite Hzero; discriminate|].
  pose proof (scan_spec c f next seekLen (S (length win)) 0) as Hscan.
  cbv zeta in Hscan. fold win in Hscan. rewrite N.add_0_r in Hscan.
  specialize (Hscan (N.le_0_l _) ltac:(unfold lenN; lia) (vacant_empty c f next)).
  destruct (scan _ c f win next _ 0) as [o r|j|]; [| |destruct Hscan].
  - destruct Hscan as (H1 & H2 & H3 & H4). split; [exact (N.le_trans _ _ _ Hoff H1)|].
    split; [exact H2|]. split; [exact H3|exact (vacant_app _ _ _ _ _ Hinv H4)].
  - destruct Hscan as (Hj & Hnone & Hj0).
    destruct (N.eqb_spec j 0) as [Ej|Ej]; [exact (Hall (Hj0 Ej))|].
    apply IH; [exact (N.le_trans _ _ _ Hoff (N.le_add_r _ _))|lia|unfold lenN in Hj, Hw1; lia
              |exact (vacant_app _ _ _ _ _ Hinv Hnone)].
Qed.

Lemma seek_next_post c seekLen f off :
  4 <= seekLen -> off <= lenN f -> seek_post c f off (seek_next c seekLen f off).
Proof.
  intros Hseek Hoff.
  exact (seek_loop_spec c seekLen f off Hseek (S (length f)) off (N.le_refl _) Hoff
           (proj2 (Nat.lt_succ_r _ _) (Nat.le_sub_l _ _)) (vacant_empty c f off)).
Qed.

(* [seek_post], written out *)
Theorem seek_next_first (c : codec) (seekLen : N) (f : bytes) (off : N) :
  4 <= seekLen -> off <= lenN f ->
  match seek_next c seekLen f off with
  | Ok (o, r) =>
      off <= o /\ acceptable c f o = true /\ read_at c f o = Ok r
      /\ (forall o', off <= o' -> o' < o -> acceptable c f o' = false)
  | Err EOF => forall o', off <= o' -> acceptable c f o' = false
  | Err _ => False
  end.
Proof. exact (seek_next_post c seekLen f off). Qed.

Lemma seek_post_err c f off e : seek_post c f off (Err e) -> e = EOF.
Proof. destruct e; intro H; (reflexivity || destruct H). Qed.

Lemma seek_post_unique c f off x y : seek_post c f off x -> seek_post c f off y -> x = y.
Proof.
  assert (Hno : forall o r e, seek_post c f off (Ok (o, r)) -> seek_post c f off (Err e) -> False).
  { intros o r e (H1 & H2 & _) He. rewrite (seek_post_err _ _ _ _ He) in He. rewrite (He o H1) in H2. discriminate H2. }
  destruct x as [[o1 r1]|e1], y as [[o2 r2]|e2]; intros Hx Hy;
    [|destruct (Hno _ _ _ Hx Hy)|destruct (Hno _ _ _ Hy Hx)
     |rewrite (seek_post_err _ _ _ _ Hx), (seek_post_err _ _ _ _ Hy); reflexivity].
  destruct Hx as (Ha1 & Ha2 & Ha3 & Ha4), Hy as (Hb1 & Hb2 & Hb3 & Hb4).
  assert (Ho : o1 = o2).
  { destruct (N.lt_trichotomy o1 o2) as [Hlt|[Heq|Hgt]]; [|exact Heq|].
    - rewrite (Hb4 o1 Ha1 Hlt) in Ha2. discriminate.
    - rewrite (Ha4 o2 Hb1 Hgt) in Hb2. discriminate. }
  subst o2. rewrite Ha3 in Hb3. injection Hb3 as ->. reflexivity.
Qed.

(* behind the end of the file both searches are refused at once *)
Lemma seek_next_window c s1 s2 f off : 4 <= s1 -> 4 <= s2 -> seek_next c s1 f off = seek_next c s2 f off.
Proof.
  intros H1 H2. destruct (N.le_gt_cases off (lenN f)) as [Ho|Ho].
  - apply (seek_post_unique c f off); apply seek_next_post; assumption.
  - apply N.ltb_lt in Ho. unfold seek_next. cbn [seek_loop]. rewrite Ho. reflexivity.
Qed.

Corollary seek_next_window_independent (c : codec) (s1 s2 : N) (f : bytes) (off : N) :
  4 <= s1 -> 4 <= s2 -> off <= lenN f -> seek_next c s1 f off = seek_next c s2 f off.
Proof. intros H1 H2 _. exact (seek_next_window c s1 s2 f off H1 H2). Qed.

(* on a file whose only acceptable positions are the starts of its records (no payload embeds a
   complete record image - inherent to any self-synchronising format), SeekNext returns the first
   record that starts at or after the offset, else EOF *)
Fixpoint first_at_or_after (off : N) (recs : list (N * option bytes)) : option (N * option bytes) :=
  match recs with
  | [] => None
  | (o, r) :: rest => if off <=? o then Some (o, r) else first_at_or_after off rest
  end.

Lemma first_at_or_after_split (off : N) (recs : list (N * option bytes)) :
  match first_at_or_after off recs with
  | Some (o, r) => off <= o /\ exists pre post, recs = pre ++ (o, r) :: post /\ Forall (fun p => fst p < off) pre
  | None => Forall (fun p => fst p < off) recs
  end.
Proof.
  induction recs as [|[o0 r0] rest IH]; cbn [first_at_or_after]; [constructor|].
  destruct (N.leb_spec off o0) as [Hle|Hlt]; [split; [exact Hle|exists [], rest; split; [reflexivity|constructor]]|].
  destruct (first_at_or_after off rest) as [[o r]|]; [|constructor; assumption].
  destruct IH as (Ho & pre & post & -> & Hpre). split; [exact Ho|].
  exists ((o0, r0) :: pre), post. split; [reflexivity|constructor; assumption].
Qed.

Theorem seek_next_written (c : codec) (seekLen : N) (f : bytes) (recs : list (N * option bytes)) (off : N) :
  4 <= seekLen -> off <= lenN f ->
  (forall pre o r post, recs = pre ++ (o, r) :: post -> Forall (fun p => fst p < o) pre) ->
  (forall o r, In (o, r) recs -> acceptable c f o = true /\ read_at c f o = Ok r) ->
  (forall o, acceptable c f o = true -> In o (map fst recs)) ->
  seek_next c seekLen f off =
    match first_at_or_after off recs with Some p => Ok p | None => Err EOF end.
Proof.
  intros Hseek Hoff Hsorted Hrecs Hcomplete.
  apply (seek_post_unique c f off); [apply seek_next_post; assumption|].
  assert (Hin : forall o', acceptable c f o' = true -> exists p, In p recs /\ fst p = o').
  { intros o' E. apply Hcomplete, in_map_iff in E. destruct E as (p & E & Hp). exists p. split; assumption. }
  pose proof (first_at_or_after_split off recs) as Hfa.
  destruct (first_at_or_after off recs) as [[o r]|].
  - destruct Hfa as (Ho & pre & post & E & Hpre).
    destruct (Hrecs o r) as [Hacc Hrd]; [rewrite E; apply in_elt|].
    split; [exact Ho|]. split; [exact Hacc|]. split; [exact Hrd|].
    intros o' Ho1 Ho2. destruct (acceptable c f o') eqn:Ea; [|reflexivity].
    destruct (Hin o' Ea) as ([o'' r'] & Hp & <-). cbn [fst] in *.
    rewrite E in Hp. apply in_app_or in Hp. destruct Hp as [Hp|[Hp|Hp]].
    + rewrite Forall_forall in Hpre. specialize (Hpre _ Hp). cbn [fst] in Hpre. lia.
    + injection Hp as -> _. lia.
    + (* an entry behind (o, r) has a larger offset *)
      apply in_split in Hp. destruct Hp as (q1 & q2 & ->).
      rewrite app_comm_cons, app_assoc in E. apply Hsorted, Forall_elt in E. cbn [fst] in E. lia.
  - intros o' Ho'. destruct (acceptable c f o') eqn:Ea; [|reflexivity].
    destruct (Hin o' Ea) as (p & Hp & <-). rewrite Forall_forall in Hfa. specialize (Hfa _ Hp). lia.
Qed.

Definition id_codec : codec := mkCodec 0 (fun x => x) (fun x => Ok x).

(* a payload ending in 0x91 directly before a record; marker bytes near the end of the file; window sizes 4
   and 4096 *)
Example seek_example :
  let f := file_hdr 0 ++ enc_rec id_codec (Some [1; 2; 0x91]) ++ enc_rec id_codec (Some [7; 7])
                      ++ enc_rec id_codec (Some [1; 2; 0x91; 0x8d; 0x4c; 0; 0xff]) in
  seek_next id_codec 4 f 9 = Ok (21, Some [7; 7])
  /\ seek_next id_codec 4096 f 9 = Ok (21, Some [7; 7])
  /\ seek_next id_codec 4 f 35 = Err EOF
  /\ seek_next id_codec 4096 f 35 = Err EOF.
Proof. vm_compute. repeat split; reflexivity. Qed.

(* F-C04e: the documented promise "SeekNext returns the first record that STARTS at or after the
   offset" is false: a payload may contain the complete image of a record (marker, nil flag, sizes,
   correct header checksum, payload).  Witness: uncompressed file with the three records
   "first", "xx" ++ IMAGE ++ "yy", "third", where IMAGE = enc_rec of the record "inner"; seeking
   from offset 25 (one byte into the second record) returns (37, "inner") - offset 37 lies inside the
   second record's payload and no record was written there - although the written record "third"
   starts at 55 >= 25. *)
Definition emb_first : bytes := [0x66; 0x69; 0x72; 0x73; 0x74].      (* "first" *)
Definition emb_inner : bytes := [0x69; 0x6e; 0x6e; 0x65; 0x72].      (* "inner" *)
Definition emb_third : bytes := [0x74; 0x68; 0x69; 0x72; 0x64].      (* "third" *)
Definition emb_image : bytes := enc_rec SeekFacts.id_codec (Some emb_inner).
Definition emb_middle : bytes := [0x78; 0x78] ++ emb_image ++ [0x79; 0x79].
Definition emb_ops : list wop :=
  [WWrite (Some emb_first); WWrite (Some emb_middle); WWrite (Some emb_third)].

Example emb_image_bytes :
  emb_image = [0x91; 0x8d; 0x4c; 0; 5; 0; 0xf3; 0xd7; 0x9d; 0xe3; 0x06; 0x69; 0x6e; 0x6e; 0x65; 0x72].
Proof. vm_compute. reflexivity. Qed.

Example emb_file_bytes :
  written SeekFacts.id_codec emb_ops =
    [4; 0; 0; 0; 0; 0; 0; 0;
     0x91; 0x8d; 0x4c; 0; 5; 0; 0xf3; 0xd7; 0x9d; 0xe3; 0x06; 0x66; 0x69; 0x72; 0x73; 0x74;
     0x91; 0x8d; 0x4c; 0; 20; 0; 0x85; 0x84; 0x80; 0x80; 0x04; 0x78; 0x78;
       0x91; 0x8d; 0x4c; 0; 5; 0; 0xf3; 0xd7; 0x9d; 0xe3; 0x06; 0x69; 0x6e; 0x6e; 0x65; 0x72;
       0x79; 0x79;
     0x91; 0x8d; 0x4c; 0; 5; 0; 0xf3; 0xd7; 0x9d; 0xe3; 0x06; 0x74; 0x68; 0x69; 0x72; 0x64]
  /\ surv SeekFacts.id_codec emb_ops = [(8, Some emb_first); (24, Some emb_middle); (55, Some emb_third)].
Proof. vm_compute. split; reflexivity. Qed.

Example seek_next_embedded_4096 :
  seek_next SeekFacts.id_codec 4096 (written SeekFacts.id_codec emb_ops) 25 = Ok (37, Some emb_inner).
Proof. vm_compute. reflexivity. Qed.

Theorem seek_next_embedded_refuted :
  exists (c : codec) (ops : list wop) (seekLen off o : N) (r : option bytes),
    (forall x, decomp c (comp c x) = Ok x) /\ ctype c <= 3
    /\ prog_ok c ops 8 [] = true /\ Forall (op_ok c) ops
    /\ 4 <= seekLen /\ off <= lenN (written c ops)
    /\ seek_next c seekLen (written c ops) off = Ok (o, r)
    /\ ~ In o (map fst (surv c ops))
    /\ (exists o' r', In (o', r') (surv c ops) /\ off <= o').
Proof.
  destruct emb_file_bytes as [Hw Hs].
  assert (Hoff : 25 <= lenN (written id_codec emb_ops)) by (rewrite Hw; discriminate).
  exists id_codec, emb_ops, 4, 25, 37, (Some emb_inner).
  split; [intros x; reflexivity|].
  split; [discriminate|].
  split; [reflexivity|].
  split; [unfold emb_ops, emb_middle; rewrite emb_image_bytes; repeat constructor|].
  split; [discriminate|].
  split; [exact Hoff|].
  split; [rewrite (seek_next_window _ 4 4096); [exact seek_next_embedded_4096|discriminate..]|].
  rewrite Hs. split; [intros [H|[H|[H|[]]]]; discriminate H|].
  exists 55, (Some emb_third). split; [right; right; left; reflexivity|discriminate].
Qed.

Print Assumptions marker_no_self_overlap.
Print Assumptions seek_next_first.
Print Assumptions seek_next_window_independent.
Print Assumptions seek_next_written.
Print Assumptions seek_example.
Print Assumptions seek_next_embedded_refuted.
