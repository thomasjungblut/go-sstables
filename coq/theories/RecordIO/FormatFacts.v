(* The record header: parsing the bytes of a written header (followed by anything) returns exactly
   the written fields and the header length; a header cut short ends in EOF / unexpected EOF.
   The file header: what is accepted and what is refused. *)
From GoSST Require Import Base.Bytes Base.ListFacts Base.Varint Base.VarintFacts Base.Crc Base.CrcFacts RecordIO.Format.
From Coq Require Import Lia.
Local Open Scope N_scope.

Lemma lenN_app (a b : bytes) : lenN (a ++ b) = lenN a + lenN b.
Proof. unfold lenN. rewrite app_length. lia. Qed.

Lemma to_nat_lenN (a : bytes) : N.to_nat (lenN a) = length a.
Proof. apply Nat2N.id. Qed.

Lemma firstn_lenN_app (a b : bytes) : firstn (N.to_nat (lenN a)) (a ++ b) = a.
Proof. rewrite to_nat_lenN. apply firstn_len_app. Qed.

Lemma skipn_lenN_app (a b : bytes) : skipn (N.to_nat (lenN a)) (a ++ b) = b.
Proof. rewrite to_nat_lenN. apply skipn_len_app. Qed.

Lemma firstn_app_long (a b : bytes) n : (length a <= n)%nat -> firstn n (a ++ b) = a ++ firstn (n - length a) b.
Proof. intro H. rewrite firstn_app. rewrite firstn_all2 by exact H. reflexivity. Qed.

Lemma firstn_app_past (a b : bytes) n : lenN a <= n ->
  firstn (N.to_nat n) (a ++ b) = a ++ firstn (N.to_nat (n - lenN a)) b.
Proof.
  intro H. unfold lenN in *. rewrite firstn_app_long by lia. do 2 f_equal. lia.
Qed.

Lemma firstn_app_short (a b : bytes) n : n <= lenN a -> firstn (N.to_nat n) (a ++ b) = firstn (N.to_nat n) a.
Proof.
  intro H. rewrite firstn_app, (proj2 (Nat.sub_0_le _ _)); [apply app_nil_r|]. unfold lenN in H. lia.
Qed.

Lemma firstn_consumed (a b : bytes) : firstn (length (a ++ b) - length b) (a ++ b) = a.
Proof. rewrite app_length, Nat.add_sub. apply firstn_len_app. Qed.

Lemma lenN_firstn (l : bytes) n : lenN (firstn (N.to_nat n) l) = N.min n (lenN l).
Proof. unfold lenN. rewrite firstn_length. lia. Qed.

Lemma skipn_beyond (f : bytes) pos : lenN f <= pos -> skipn (N.to_nat pos) f = [].
Proof. intro H. apply skipn_all2. unfold lenN in H. lia. Qed.

Lemma lenN_sub (f : bytes) o n : lenN (sub f o n) = N.min n (lenN f - o).
Proof. unfold lenN, sub. rewrite firstn_length, skipn_length. lia. Qed.

Lemma sub_app_short (a b : bytes) n : sub (a ++ b) (lenN a) n = firstn (N.to_nat n) b.
Proof. unfold sub. rewrite skipn_lenN_app. reflexivity. Qed.

Lemma sub_app_shift (a b : bytes) k n : sub (a ++ b) (lenN a + k) n = sub b k n.
Proof.
  unfold sub. f_equal. rewrite N2Nat.inj_add, to_nat_lenN. induction a as [|x a IH]; [reflexivity|exact IH].
Qed.

Lemma hdr_prefix_eq usz csz isnil :
  hdr_prefix usz csz isnil = marker ++ (if isnil then 1 else 0) :: uv_enc usz ++ uv_enc csz.
Proof. reflexivity. Qed.

Lemma hdr_eq usz csz isnil :
  hdr usz csz isnil =
  marker ++ (if isnil then 1 else 0) :: uv_enc usz ++ uv_enc csz ++ uv_enc (crc32c (hdr_prefix usz csz isnil)).
Proof.
  unfold hdr. cbv zeta. generalize (crc32c (hdr_prefix usz csz isnil)). intro k.
  rewrite hdr_prefix_eq, <- app_assoc, <- app_comm_cons, <- app_assoc. reflexivity.
Qed.

Lemma hdr_prefix_bytes usz csz isnil : Forall (fun b => b < 256) (hdr_prefix usz csz isnil).
Proof.
  unfold hdr_prefix. repeat (apply Forall_app; split); try apply uv_enc_bytes.
  constructor; [destruct isnil; lia|constructor].
Qed.

Lemma hdr_crc_lt usz csz isnil k : 32 <= k -> crc32c (hdr_prefix usz csz isnil) < 2 ^ k.
Proof.
  intro H. apply N.lt_le_trans with (2 ^ 32); [apply crc32c_lt, hdr_prefix_bytes|].
  apply N.pow_le_mono_r; [discriminate|exact H].
Qed.

Lemma hdr_crc_lt64 usz csz isnil : crc32c (hdr_prefix usz csz isnil) < 2 ^ 64.
Proof. apply hdr_crc_lt. discriminate. Qed.

(* a v4 header has between 3 + 1 + 1 + 1 + 1 and 3 + 1 + 10 + 10 + 5 bytes, so it fits the 36-byte
   window *)
Lemma hdr_length usz csz isnil : (7 <= length (hdr usz csz isnil) <= 29)%nat.
Proof.
  rewrite hdr_eq. rewrite !app_length. cbn [length marker]. rewrite !app_length.
  pose proof (uv_enc_len usz). pose proof (uv_enc_len csz).
  pose proof (uv_enc_len (crc32c (hdr_prefix usz csz isnil))).
  assert (length (uv_enc (crc32c (hdr_prefix usz csz isnil))) <= 5)%nat; [|lia].
  apply uv_enc_fuel_len_small, hdr_crc_lt. discriminate.
Qed.

Lemma hdr_starts_with_marker usz csz isnil : firstn 3 (hdr usz csz isnil) = marker.
Proof. rewrite hdr_eq. reflexivity. Qed.

(* the three field varints of a written header parse to the written values; what is left is the
   comparison of the checksum of those bytes with whatever the fourth varint holds *)
Lemma parse_hdr_fields usz csz nb tl :
  usz < 2 ^ 64 -> csz < 2 ^ 64 ->
  let pre := marker ++ nb :: uv_enc usz ++ uv_enc csz in
  parse_hdr (pre ++ tl) =
    match uv_dec_min tl with
    | Err e => Err e
    | Ok (expected, l5) =>
        if crc32c pre =? expected
        then Ok (usz, csz, nb =? 1, N.of_nat (length (pre ++ tl) - length l5))
        else Err HeaderChecksum
    end.
Proof.
  intros Hu Hc pre.
  assert (Hl : pre ++ tl = uv_enc magic ++ nb :: uv_enc usz ++ uv_enc csz ++ tl).
  { unfold pre. rewrite <- app_assoc, <- app_comm_cons, <- !app_assoc. reflexivity. }
  unfold parse_hdr. rewrite Hl.
  rewrite uv_dec_min_roundtrip by reflexivity. rewrite N.eqb_refl. cbn [negb].
  rewrite uv_dec_min_roundtrip by exact Hu. rewrite uv_dec_min_roundtrip by exact Hc.
  rewrite <- Hl. cbv zeta. rewrite firstn_consumed. reflexivity.
Qed.

Theorem parse_hdr_hdr usz csz isnil rest :
  usz < 2 ^ 64 -> csz < 2 ^ 64 ->
  parse_hdr (hdr usz csz isnil ++ rest) = Ok (usz, csz, isnil, lenN (hdr usz csz isnil)).
Proof.
  intros Hu Hc. unfold hdr. cbv zeta. rewrite <- app_assoc, hdr_prefix_eq.
  rewrite parse_hdr_fields by assumption. rewrite <- hdr_prefix_eq.
  rewrite uv_dec_min_roundtrip by apply hdr_crc_lt64.
  rewrite N.eqb_refl, app_assoc, app_length, Nat.add_sub. destruct isnil; reflexivity.
Qed.

Theorem parse_hdr_window usz csz isnil rest :
  usz < 2 ^ 64 -> csz < 2 ^ 64 ->
  parse_hdr (firstn 36 (hdr usz csz isnil ++ rest)) = Ok (usz, csz, isnil, lenN (hdr usz csz isnil)).
Proof.
  intros Hu Hc. pose proof (hdr_length usz csz isnil) as Hl.
  rewrite firstn_app_long by (clear - Hl; lia). apply parse_hdr_hdr; assumption.
Qed.

Theorem parse_hdr_stream_hdr usz csz isnil rest :
  usz < 2 ^ 64 -> csz < 2 ^ 64 ->
  parse_hdr_stream (hdr usz csz isnil ++ rest) = Ok (usz, csz, isnil, lenN (hdr usz csz isnil)).
Proof.
  intros Hu Hc. unfold parse_hdr_stream. rewrite parse_hdr_window by assumption. reflexivity.
Qed.

(* a written record: header, then the stored form of the payload (FileWriter.Write) *)
Definition isnone (r : option bytes) : bool := match r with None => true | Some _ => false end.
Definition rec_payload (r : option bytes) : bytes := match r with Some p => p | None => [] end.
Definition rec_stored (c : codec) (r : option bytes) : bytes :=
  match r with None => [] | Some p => if compressed c then comp c p else p end.

Lemma enc_rec_eq c r :
  enc_rec c r
  = hdr (lenN (rec_payload r)) (if compressed c then lenN (comp c (rec_payload r)) else 0) (isnone r)
    ++ rec_stored c r.
Proof.
  unfold enc_rec, rec_stored. destruct r as [p|]; destruct (compressed c); cbn [rec_payload isnone];
    rewrite ?app_nil_r; reflexivity.
Qed.

Lemma payload_len_stored c p :
  payload_len c (lenN p) (if compressed c then lenN (comp c p) else 0) = lenN (rec_stored c (Some p)).
Proof. unfold payload_len, rec_stored. destruct (compressed c); reflexivity. Qed.

Lemma decode_stored c p :
  (forall x, decomp c (comp c x) = Ok x) -> decode_payload c (rec_stored c (Some p)) = Ok (Some p).
Proof. intro H. unfold decode_payload, rec_stored. destruct (compressed c); [rewrite H|]; reflexivity. Qed.

Lemma enc_rec_pos c r : 0 < lenN (enc_rec c r).
Proof.
  rewrite enc_rec_eq, lenN_app. unfold lenN at 1.
  pose proof (hdr_length (lenN (rec_payload r)) (if compressed c then lenN (comp c (rec_payload r)) else 0) (isnone r)).
  lia.
Qed.

Lemma parse_file_hdr_eq (f : bytes) : 8 <= lenN f ->
  parse_file_hdr f =
  if (4 <? rd32 (sub f 0 4)) || (rd32 (sub f 0 4) <? 1) then Err Rejected
  else if 3 <? rd32 (sub f 4 4) then Err Rejected else Ok (rd32 (sub f 0 4), rd32 (sub f 4 4)).
Proof.
  intro H. do 8 (destruct f as [|? f]; [elim H; reflexivity|]). reflexivity.
Qed.

Lemma lenN_file_hdr ct rest : 8 <= lenN (file_hdr ct ++ rest).
Proof. rewrite lenN_app. apply N.le_add_r. Qed.

Lemma file_hdr_words ct rest : ct <= 3 ->
  rd32 (sub (file_hdr ct ++ rest) 0 4) = 4 /\ rd32 (sub (file_hdr ct ++ rest) 4 4) = ct.
Proof.
  intro H. assert (Hc : ct = 0 \/ ct = 1 \/ ct = 2 \/ ct = 3) by lia.
  destruct Hc as [-> | [-> | [-> | ->]]]; split; reflexivity.
Qed.

Lemma parse_file_hdr_ok ct rest : ct <= 3 -> parse_file_hdr (file_hdr ct ++ rest) = Ok (4, ct).
Proof.
  intro H. destruct (file_hdr_words ct rest H) as [Ev Ec].
  rewrite parse_file_hdr_eq, Ev, Ec by apply lenN_file_hdr. apply N.ltb_ge in H. rewrite H. reflexivity.
Qed.

Theorem file_header_rejected (f : bytes) :
  8 <= lenN f ->
  let v := rd32 (sub f 0 4) in
  let ct := rd32 (sub f 4 4) in
  (v < 1 \/ 4 < v \/ 3 < ct) -> parse_file_hdr f = Err Rejected.
Proof.
  intros Hlen v ct H. rewrite parse_file_hdr_eq by exact Hlen. fold v ct.
  destruct H as [H | [H | H]]; apply N.ltb_lt in H; rewrite H.
  - rewrite orb_true_r. reflexivity.
  - reflexivity.
  - destruct ((4 <? v) || (v <? 1)); reflexivity.
Qed.

Lemma parse_file_hdr_short (f : bytes) :
  lenN f < 8 -> parse_file_hdr f = Err (if lenN f =? 0 then EOF else UnexpectedEOF).
Proof.
  intro H. unfold parse_file_hdr.
  assert (Hs : sub f 0 8 = f) by (apply firstn_all2; unfold lenN in H; lia).
  rewrite Hs. apply N.ltb_lt in H. rewrite H. reflexivity.
Qed.

Theorem file_header_short (f : bytes) : lenN f < 8 -> exists e, parse_file_hdr f = Err e.
Proof. intro H. eexists. apply parse_file_hdr_short, H. Qed.

Definition eofish (e : err) : Prop := e = EOF \/ e = UnexpectedEOF.
Definition pprefix (t l : bytes) : Prop := exists s, s <> [] /\ l = t ++ s.

Lemma pprefix_nil_r t : ~ pprefix t [].
Proof.
  intros (s & Hs & H). symmetry in H. apply app_eq_nil in H. destruct H as [_ H]. contradiction.
Qed.

Lemma pprefix_length t l : pprefix t l -> (length t < length l)%nat.
Proof.
  intros (s & Hs & ->). rewrite app_length. destruct s as [|x s]; [contradiction|]. cbn [length]. lia.
Qed.

Lemma pprefix_firstn k (l : bytes) : (k < length l)%nat -> pprefix (firstn k l) l.
Proof.
  intro H. exists (skipn k l). split.
  - intro E. apply (f_equal (@length N)) in E. rewrite skipn_length in E. cbn in E. lia.
  - symmetry. apply firstn_skipn.
Qed.

Lemma pprefix_cut b (e : bytes) : b < lenN e -> pprefix (firstn (N.to_nat b) e) e.
Proof. intro H. apply pprefix_firstn. unfold lenN in H. lia. Qed.

Lemma pprefix_cons x l t : pprefix t (x :: l) -> t = [] \/ exists t', t = x :: t' /\ pprefix t' l.
Proof.
  intros (s & Hs & E). destruct t as [|y t]; [left; reflexivity|right].
  injection E as <- E. exists t. split; [reflexivity|]. exists s. auto.
Qed.

Lemma pprefix_app a : forall t b, pprefix t (a ++ b) ->
  pprefix t a \/ exists t', t = a ++ t' /\ pprefix t' b.
Proof.
  induction a as [|x a IH]; intros t b H; [right; exists t; auto|].
  apply pprefix_cons in H. destruct H as [->|(t' & -> & H)].
  - left. exists (x :: a). split; [discriminate|reflexivity].
  - apply IH in H. destruct H as [(s & Hs & ->)|(t'' & -> & H)].
    + left. exists s. auto.
    + right. exists t''. auto.
Qed.

(* cut inside a varint: only continuation bytes are left, and the decoder runs into the end *)
Lemma framed_pprefix e : forall t, framed e = true -> pprefix t e -> Forall (fun b => 128 <= b) t.
Proof.
  induction e as [|b e IH]; intros t He H; [discriminate|].
  apply pprefix_cons in H. destruct H as [->|(t' & -> & H)]; [constructor|].
  cbn [framed] in He. destruct (N.ltb_spec b 128).
  - destruct e; [|discriminate]. elim (pprefix_nil_r _ H).
  - constructor; [assumption|]. apply IH; assumption.
Qed.

Lemma uv_dec_go_cont fuel : forall i acc s t, Forall (fun b => 128 <= b) t -> (length t < fuel)%nat ->
  exists e, eofish e /\ uv_dec_go fuel i acc s t = Err e.
Proof.
  induction fuel as [|fuel IH]; intros i acc s t HF HL; [lia|].
  destruct t as [|b t]; cbn [uv_dec_go].
  - destruct (i =? 0); eexists; (split; [|reflexivity]); [left|right]; reflexivity.
  - apply Forall_cons_iff in HF. destruct HF as [Hb HF]. apply N.ltb_ge in Hb. rewrite Hb.
    apply IH; [exact HF|cbn [length] in HL; lia].
Qed.

Lemma uv_dec_min_pprefix x t : x < 2 ^ 64 -> pprefix t (uv_enc x) ->
  exists e, eofish e /\ uv_dec_min t = Err e.
Proof.
  intros Hx H.
  destruct (uv_dec_go_cont 10 0 0 0 t) as (e & He & Hd).
  - apply (framed_pprefix (uv_enc x)); [apply uv_enc_framed_val, Hx|exact H].
  - apply pprefix_length in H. pose proof (uv_enc_len x). lia.
  - exists e. split; [exact He|]. apply uv_dec_min_err, Hd.
Qed.

Lemma uv_dec_min_cut x b t : x < 2 ^ 64 -> pprefix t (uv_enc x ++ b) ->
  (exists e, eofish e /\ uv_dec_min t = Err e) \/ exists t', pprefix t' b /\ uv_dec_min t = Ok (x, t').
Proof.
  intros Hx H. apply pprefix_app in H. destruct H as [H|(t' & -> & H)].
  - left. apply (uv_dec_min_pprefix x); assumption.
  - right. exists t'. split; [exact H|]. apply uv_dec_min_roundtrip, Hx.
Qed.

Theorem parse_hdr_cut usz csz isnil t :
  usz < 2 ^ 64 -> csz < 2 ^ 64 -> pprefix t (hdr usz csz isnil) ->
  exists e, eofish e /\ parse_hdr t = Err e.
Proof.
  intros Hu Hc H. rewrite hdr_eq in H. change marker with (uv_enc magic) in H. unfold parse_hdr.
  apply uv_dec_min_cut in H; [|reflexivity]. destruct H as [(e & He & ->)|(t1 & H & ->)]; [eauto|].
  rewrite N.eqb_refl. cbn [negb].
  apply pprefix_cons in H. destruct H as [->|(t2 & -> & H)]; [exists EOF; split; [left|]; reflexivity|].
  apply uv_dec_min_cut in H; [|exact Hu]. destruct H as [(e & He & ->)|(t3 & H & ->)]; [eauto|].
  apply uv_dec_min_cut in H; [|exact Hc]. destruct H as [(e & He & ->)|(t4 & H & ->)]; [eauto|].
  apply uv_dec_min_pprefix in H; [|apply hdr_crc_lt64]. destruct H as (e & He & ->). eauto.
Qed.

Lemma parse_hdr_stream_short t : (length t < 36)%nat -> parse_hdr_stream t = parse_hdr t.
Proof.
  intro H. unfold parse_hdr_stream. cbv zeta. rewrite firstn_all2 by lia.
  replace (36 <=? lenN t) with false by (symmetry; apply N.leb_gt; unfold lenN; lia).
  destruct (parse_hdr t) as [a|e]; [reflexivity|]. destruct e; reflexivity.
Qed.

Theorem parse_hdr_stream_cut usz csz isnil t :
  usz < 2 ^ 64 -> csz < 2 ^ 64 -> pprefix t (hdr usz csz isnil) ->
  exists e, eofish e /\ parse_hdr_stream t = Err e.
Proof.
  intros Hu Hc H. pose proof (pprefix_length _ _ H) as HL.
  pose proof (hdr_length usz csz isnil) as HH.
  rewrite parse_hdr_stream_short by (clear - HL HH; lia). apply (parse_hdr_cut usz csz isnil); assumption.
Qed.

Print Assumptions parse_hdr_hdr.
Print Assumptions parse_hdr_window.
Print Assumptions parse_hdr_stream_hdr.
Print Assumptions parse_file_hdr_ok.
Print Assumptions file_header_rejected.
Print Assumptions file_header_short.
Print Assumptions parse_hdr_stream_cut.
