(* C04: whatever program of Write / WriteSync / Seek(back to a boundary) / Close produced a file,
   every reader returns exactly the surviving records.  For every codec with decomp (comp x) = x,
   hence for every compression type; buffer sizes do not occur in the model (see DESIGN).
   C12, truncation: a file cut at any length yields the records wholly inside the cut and then an
   end-of-file error. *)
From GoSST Require Import Base.Bytes Base.ListFacts.
From GoSST Require Import RecordIO.Format RecordIO.FormatFacts RecordIO.Writer RecordIO.SeqReader RecordIO.MmapReader.
From Coq Require Import Lia.
Local Open Scope N_scope.

Lemma read_at_app c pre l :
  read_at c (pre ++ l) (lenN pre)
  = match firstn (N.to_nat max_header_size) l with
    | [] => Err EOF
    | win =>
      match parse_hdr win with
      | Err EOF => Err WrappedEOF
      | Err e => Err e
      | Ok (usz, csz, isnil, hlen) =>
        if isnil then Ok None else
        let n := payload_len c usz csz in
        let p := sub l hlen n in
        if lenN p <? n then Err WrappedEOF else decode_payload c p
      end
    end.
Proof.
  unfold read_at. rewrite (proj2 (N.ltb_ge _ _)) by (rewrite lenN_app; apply N.le_add_r).
  rewrite sub_app_short. destruct (firstn _ l); [reflexivity|].
  destruct (parse_hdr _) as [[[[u cs] b] h]|e]; [|reflexivity]. rewrite sub_app_shift. reflexivity.
Qed.

Lemma fst_w_write c r s :
  fst (w_write c r s)
  = mkW (write_at (w_file s) (w_cur s) (enc_rec c r)) (w_cur s + lenN (enc_rec c r))
        (match r with None => w_largest s | Some _ => N.max (w_largest s) (w_cur s + lenN (enc_rec c r)) end).
Proof. destruct r; reflexivity. Qed.

Lemma w_cur_write c r s : w_cur (fst (w_write c r s)) = w_cur s + lenN (enc_rec c r).
Proof. rewrite fst_w_write. reflexivity. Qed.

Lemma w_seek_eq off s :
  w_seek off s = if (off <? file_header_size) || (w_cur s <? off) then Err Rejected
                 else Ok (mkW (w_file s) off (N.max (w_largest s) (w_cur s))).
Proof. unfold w_seek. destruct (off <? file_header_size); reflexivity. Qed.

Lemma write_at_end (F junk e : bytes) :
  write_at (F ++ junk) (lenN F) e = (F ++ e) ++ skipn (length e) junk.
Proof.
  unfold write_at. rewrite firstn_lenN_app, to_nat_lenN, skipn_app, skipn_all2 by apply Nat.le_add_r.
  rewrite (Nat.add_comm (length F)), Nat.add_sub, app_assoc. reflexivity.
Qed.

(* The record writer holds logical content F: the file is F followed by stale bytes (what a seek back leaves behind).
   Close cuts at [w_cur] when that lies below [w_largest] and keeps the whole file otherwise; the last clause makes
   the closed file F in both cases (wrep_close). *)
Definition wrep (s : wstate) (F : bytes) : Prop :=
  exists junk, w_file s = F ++ junk /\ w_cur s = lenN F /\ 8 <= w_cur s
               /\ lenN (w_file s) <= N.max (w_largest s) (w_cur s).

Lemma wrep_open c : wrep (w_open c) (file_hdr (ctype c)).
Proof. exists []. rewrite app_nil_r. repeat split; reflexivity || apply N.le_refl || discriminate. Qed.

Lemma wrep_write c r s F : wrep s F -> wrep (fst (w_write c r s)) (F ++ enc_rec c r).
Proof.
  intros (junk & Hf & Hc & H8 & Hl). rewrite fst_w_write.
  exists (skipn (length (enc_rec c r)) junk). cbn [w_file w_cur w_largest]. rewrite Hf, Hc, write_at_end in *.
  split; [reflexivity|]. split; [symmetry; apply lenN_app|]. split; [lia|].
  assert (Hj : lenN (skipn (length (enc_rec c r)) junk) = lenN junk - lenN (enc_rec c r))
    by (unfold lenN; rewrite skipn_length; lia).
  rewrite !lenN_app, Hj in *. clear Hf Hc Hj.
  (* the stale bytes are overwritten, or what remains of them was within the old bound *)
  destruct (N.le_gt_cases (lenN junk) (lenN (enc_rec c r))) as [Hle|Hgt].
  - rewrite (proj2 (N.sub_0_le _ _) Hle), N.add_0_r. apply N.le_max_r.
  - replace (_ + _ + _) with (lenN F + lenN junk) by lia. etransitivity; [exact Hl|].
    apply N.max_le_compat; [destruct r; [apply N.le_max_l|apply N.le_refl]|apply N.le_add_r].
Qed.

Lemma wrep_seek s F G : wrep s (F ++ G) -> 8 <= lenN F ->
  wrep (mkW (w_file s) (lenN F) (N.max (w_largest s) (w_cur s))) F.
Proof.
  intros (junk & Hf & _ & _ & Hl) H8. exists (G ++ junk). cbn [w_file w_cur w_largest].
  split; [rewrite Hf; symmetry; apply app_assoc|]. split; [reflexivity|]. split; [exact H8|].
  exact (N.le_trans _ _ _ Hl (N.le_max_l _ _)).
Qed.

Lemma wrep_close s F : wrep s F -> w_close s = F /\ w_size s = lenN F.
Proof.
  intros (junk & Hf & Hc & H8 & Hl). split; [|exact Hc].
  unfold w_close. destruct (N.ltb_spec (w_cur s) (w_largest s)) as [Hlt|Hge].
  - rewrite Hf, Hc. apply firstn_lenN_app.
  - rewrite Hf in *. unfold lenN in *. rewrite app_length in Hl.
    destruct junk as [|x junk]; [apply app_nil_r|]. cbn [length] in Hl. lia.
Qed.

Section Facts.
  Variable c : codec.
  Hypothesis codec_ok : forall x, decomp c (comp c x) = Ok x.

  Definition payload (r : option bytes) : bytes := match r with Some p => p | None => [] end.
  (* lengths are uint64 in the code *)
  Definition size_ok (r : option bytes) : Prop :=
    lenN (payload r) < 2 ^ 64 /\ lenN (comp c (payload r)) < 2 ^ 64.

  Definition op_ok (o : wop) : Prop := match o with WWrite r => size_ok r | WSeek _ => True end.

  (* seeks go back to the start of a surviving record or stay at the current end *)
  Fixpoint prog_ok (ops : list wop) (cur : N) (acc : list (N * option bytes)) : bool :=
    match ops with
    | [] => true
    | WWrite r :: rest => prog_ok rest (cur + lenN (enc_rec c r)) (acc ++ [(cur, r)])
    | WSeek off :: rest =>
        (N.eqb off cur || existsb (fun p => N.eqb (fst p) off) acc)
        && prog_ok rest off (filter (fun p => fst p <? off) acc)
    end.

  Definition written (ops : list wop) : bytes := w_close (fst (w_run c ops (w_open c))).
  Definition surv (ops : list wop) : list (N * option bytes) := survivors c ops 8 [].

  Lemma size_ok_hdr r : size_ok r ->
    lenN (rec_payload r) < 2 ^ 64 /\ (if compressed c then lenN (comp c (rec_payload r)) else 0) < 2 ^ 64.
  Proof. intros [Hu Hc]. split; [exact Hu|]. destruct (compressed c); [exact Hc|reflexivity]. Qed.

  Definition encs (rs : list (option bytes)) : bytes := flat_map (enc_rec c) rs.

  Lemma encs_app a b : encs (a ++ b) = encs a ++ encs b.
  Proof. apply flat_map_app. Qed.

  Lemma encs_cons r rs : encs (r :: rs) = enc_rec c r ++ encs rs.
  Proof. reflexivity. Qed.

  Lemma encs_snoc rs r : encs (rs ++ [r]) = encs rs ++ enc_rec c r.
  Proof. rewrite encs_app. cbn [encs flat_map]. rewrite app_nil_r. reflexivity. Qed.

  Lemma encs_split k rs : encs rs = encs (firstn k rs) ++ encs (skipn k rs).
  Proof. rewrite <- encs_app, firstn_skipn. reflexivity. Qed.

  Lemma encs_firstn_le k rs : lenN (encs (firstn k rs)) <= lenN (encs rs).
  Proof. rewrite (encs_split k rs), lenN_app. apply N.le_add_r. Qed.

  Lemma length_le_encs rs : N.of_nat (length rs) <= lenN (encs rs).
  Proof.
    induction rs as [|r rs IH]; [apply N.le_0_l|]. rewrite encs_cons, lenN_app.
    pose proof (enc_rec_pos c r). cbn [length]. lia.
  Qed.

  Lemma read_next_hdr pre u cs b rest : u < 2 ^ 64 -> cs < 2 ^ 64 ->
    read_next c (pre ++ hdr u cs b ++ rest) (lenN pre)
    = let pos := lenN pre + lenN (hdr u cs b) in
      if b then (Ok None, pos) else
      let n := payload_len c u cs in
      let p := firstn (N.to_nat n) rest in
      if lenN p <? n then (Err (if lenN p =? 0 then EOF else UnexpectedEOF), lenN pre)
      else (decode_payload c p, pos + n).
  Proof.
    intros Hu Hc. unfold read_next. rewrite skipn_lenN_app, parse_hdr_stream_hdr by assumption.
    rewrite <- lenN_app, app_assoc, sub_app_short. reflexivity.
  Qed.

  Lemma skip_next_hdr pre u cs b rest : u < 2 ^ 64 -> cs < 2 ^ 64 ->
    skip_next c (pre ++ hdr u cs b ++ rest) (lenN pre)
    = (Ok tt, lenN pre + lenN (hdr u cs b) + (if b then 0 else payload_len c u cs)).
  Proof.
    intros Hu Hc. unfold skip_next. rewrite skipn_lenN_app, parse_hdr_stream_hdr by assumption.
    reflexivity.
  Qed.

  Lemma read_at_hdr pre u cs b rest : u < 2 ^ 64 -> cs < 2 ^ 64 ->
    read_at c (pre ++ hdr u cs b ++ rest) (lenN pre)
    = if b then Ok None else
      let n := payload_len c u cs in
      let p := firstn (N.to_nat n) rest in
      if lenN p <? n then Err WrappedEOF else decode_payload c p.
  Proof.
    intros Hu Hc. rewrite read_at_app. pose proof (parse_hdr_window u cs b rest Hu Hc) as Hp.
    change 36%nat with (N.to_nat max_header_size) in Hp.
    destruct (firstn _ (hdr u cs b ++ rest)); [discriminate Hp|].
    rewrite Hp. cbv zeta. rewrite sub_app_short. reflexivity.
  Qed.

  Lemma read_next_one pre r rest : size_ok r ->
    read_next c (pre ++ enc_rec c r ++ rest) (lenN pre) = (Ok r, lenN pre + lenN (enc_rec c r)).
  Proof.
    intro Hs. rewrite enc_rec_eq, <- app_assoc, read_next_hdr by apply (size_ok_hdr r Hs).
    rewrite lenN_app, N.add_assoc. destruct r as [p|]; cbv zeta; cbn [isnone rec_payload].
    - rewrite payload_len_stored, firstn_lenN_app, N.ltb_irrefl, decode_stored by exact codec_ok. reflexivity.
    - rewrite N.add_0_r. reflexivity.
  Qed.

  Lemma skip_next_one pre r rest : size_ok r ->
    skip_next c (pre ++ enc_rec c r ++ rest) (lenN pre) = (Ok tt, lenN pre + lenN (enc_rec c r)).
  Proof.
    intro Hs. rewrite enc_rec_eq, <- app_assoc, skip_next_hdr by apply (size_ok_hdr r Hs).
    rewrite lenN_app, N.add_assoc. destruct r as [p|]; cbn [isnone rec_payload]; [rewrite payload_len_stored|]; reflexivity.
  Qed.

  Lemma read_at_one pre r rest : size_ok r ->
    read_at c (pre ++ enc_rec c r ++ rest) (lenN pre) = Ok r.
  Proof.
    intro Hs. rewrite enc_rec_eq, <- app_assoc, read_at_hdr by apply (size_ok_hdr r Hs).
    destruct r as [p|]; cbv zeta; cbn [isnone rec_payload]; [|reflexivity].
    rewrite payload_len_stored, firstn_lenN_app, N.ltb_irrefl. apply decode_stored, codec_ok.
  Qed.

  Lemma read_next_beyond f pos : lenN f <= pos -> read_next c f pos = (Err EOF, pos).
  Proof.
    intro H. unfold read_next. rewrite skipn_beyond by exact H. reflexivity.
  Qed.

  Lemma skip_next_beyond f pos : lenN f <= pos -> skip_next c f pos = (Err EOF, pos).
  Proof.
    intro H. unfold skip_next. rewrite skipn_beyond by exact H. reflexivity.
  Qed.

  Lemma read_next_end pre : read_next c pre (lenN pre) = (Err EOF, lenN pre).
  Proof. apply read_next_beyond, N.le_refl. Qed.

  (* cut in its header, no reader gets past a record; cut in its payload, the reads fail while a
     skip only seeks and lands beyond the end *)
  Lemma next_cut_hdr pre u cs b t : u < 2 ^ 64 -> cs < 2 ^ 64 -> pprefix t (hdr u cs b) ->
    exists e, eofish e /\ read_next c (pre ++ t) (lenN pre) = (Err e, lenN pre)
                       /\ skip_next c (pre ++ t) (lenN pre) = (Err e, lenN pre).
  Proof.
    intros Hu Hc Hp. destruct (parse_hdr_stream_cut u cs b t Hu Hc Hp) as (e & He & Hd).
    exists e. split; [exact He|]. unfold read_next, skip_next. rewrite skipn_lenN_app, Hd.
    destruct He as [-> | ->]; split; reflexivity.
  Qed.

  Lemma enc_rec_cut r t : size_ok r -> pprefix t (enc_rec c r) ->
    exists u cs, u < 2 ^ 64 /\ cs < 2 ^ 64 /\
      (pprefix t (hdr u cs (isnone r))
       \/ exists t', let n := payload_len c u cs in
            t = hdr u cs false ++ t' /\ firstn (N.to_nat n) t' = t' /\ (lenN t' <? n) = true).
  Proof.
    intros Hs Hp. destruct (size_ok_hdr r Hs) as [Hu Hc]. rewrite enc_rec_eq in Hp.
    do 2 eexists. split; [exact Hu|]. split; [exact Hc|].
    apply pprefix_app in Hp. destruct Hp as [Hp | (t' & -> & Hp)]; [left; exact Hp|right].
    destruct r as [p|]; [|destruct (pprefix_nil_r _ Hp)].
    exists t'. cbv zeta. cbn [rec_payload isnone]. rewrite payload_len_stored. split; [reflexivity|]. split.
    - apply firstn_all2. rewrite to_nat_lenN. apply pprefix_length in Hp. lia.
    - apply N.ltb_lt. apply pprefix_length in Hp. unfold lenN. lia.
  Qed.

  Lemma read_next_cut pre r t : size_ok r -> pprefix t (enc_rec c r) ->
    exists e, eofish e /\ read_next c (pre ++ t) (lenN pre) = (Err e, lenN pre).
  Proof.
    intros Hs Hp. destruct (enc_rec_cut r t Hs Hp) as (u & cs & Hu & Hc & [Hh | (t' & -> & Hf & Hlt)]).
    - destruct (next_cut_hdr pre u cs _ t Hu Hc Hh) as (e & He & Hr & _). exists e. split; assumption.
    - rewrite read_next_hdr by assumption. cbv zeta. rewrite Hf, Hlt. eexists. split; [|reflexivity].
      destruct (lenN t' =? 0); [left|right]; reflexivity.
  Qed.

  Lemma read_at_cut pre r t : size_ok r -> pprefix t (enc_rec c r) ->
    exists e, read_at c (pre ++ t) (lenN pre) = Err e.
  Proof.
    intros Hs Hp. destruct (enc_rec_cut r t Hs Hp) as (u & cs & Hu & Hc & [Hh | (t' & -> & Hf & Hlt)]).
    - rewrite read_at_app.
      pose proof (pprefix_length _ _ Hh) as HL. pose proof (hdr_length u cs (isnone r)) as HH.
      rewrite firstn_all2 by (change (N.to_nat max_header_size) with 36%nat; lia).
      destruct (parse_hdr_cut u cs _ t Hu Hc Hh) as (e & He & Hd).
      destruct t; [eexists; reflexivity|]. rewrite Hd.
      destruct He as [-> | ->]; eexists; reflexivity.
    - rewrite read_at_hdr by assumption. cbv zeta. rewrite Hf, Hlt. eexists. reflexivity.
  Qed.

  Lemma read_all_concat rs : forall fuel pre, Forall size_ok rs -> (length rs < fuel)%nat ->
    read_all fuel c (pre ++ encs rs) (lenN pre) = map (fun r => Ok r) rs ++ [Err EOF].
  Proof.
    induction rs as [|r rs IH]; intros [|fuel] pre HF HL; try destruct (Nat.nlt_0_r _ HL); cbn [read_all].
    - cbn [encs flat_map]. rewrite app_nil_r, read_next_end. reflexivity.
    - inversion_clear HF as [|? ? Hr HF'].
      rewrite encs_cons, read_next_one, <- lenN_app, app_assoc, IH by (assumption || exact (proj2 (Nat.succ_lt_mono _ _) HL)).
      reflexivity.
  Qed.

  (* the bookkeeping list of [prog_ok] and [survivors] is [offs 8 rs] throughout a run, rs being the
     records that survive so far (run_inv) *)
  Fixpoint offs (base : N) (rs : list (option bytes)) : list (N * option bytes) :=
    match rs with
    | [] => []
    | r :: t => (base, r) :: offs (base + lenN (enc_rec c r)) t
    end.

  Lemma map_snd_offs rs : forall base, map snd (offs base rs) = rs.
  Proof. induction rs as [|r rs IH]; intro base; [reflexivity|]. cbn [offs map snd]. rewrite IH. reflexivity. Qed.

  Lemma offs_snoc rs : forall base r,
    offs base (rs ++ [r]) = offs base rs ++ [(base + lenN (encs rs), r)].
  Proof.
    induction rs as [|x rs IH]; intros base r; cbn [app offs].
    - rewrite N.add_0_r. reflexivity.
    - rewrite IH, encs_cons, lenN_app, N.add_assoc. reflexivity.
  Qed.

  Lemma offs_split rs : forall base pre off r post, offs base rs = pre ++ (off, r) :: post ->
    off = base + lenN (encs (map snd pre)).
  Proof.
    induction rs as [|x rs IH]; intros base [|q pre] off r post H; try discriminate H.
    - injection H as -> _ _. symmetry. apply N.add_0_r.
    - injection H as <- H. apply IH in H. cbn [map snd]. rewrite encs_cons, lenN_app. lia.
  Qed.

  Lemma offs_in rs base off r : In (off, r) (offs base rs) ->
    exists pre post, rs = pre ++ r :: post /\ off = base + lenN (encs pre).
  Proof.
    intro H. apply in_split in H. destruct H as (p & q & H). exists (map snd p), (map snd q).
    split; [|exact (offs_split _ _ _ _ _ _ H)].
    rewrite <- (map_snd_offs rs base), H, map_app. reflexivity.
  Qed.

  Lemma filter_offs_none rs : forall base off, off <= base ->
    filter (fun p : N * option bytes => fst p <? off) (offs base rs) = [].
  Proof.
    induction rs as [|r rs IH]; intros base off H; [reflexivity|].
    cbn [offs filter fst]. rewrite (proj2 (N.ltb_ge _ _) H). apply IH. lia.
  Qed.

  Lemma filter_offs rs : forall k base,
    filter (fun p : N * option bytes => fst p <? base + lenN (encs (firstn k rs))) (offs base rs)
    = offs base (firstn k rs).
  Proof.
    induction rs as [|r rs IH]; intros [|k] base; try reflexivity.
    - apply filter_offs_none. cbn. lia.
    - cbn [firstn offs filter fst]. rewrite encs_cons, lenN_app, N.add_assoc, IH.
      pose proof (enc_rec_pos c r) as Hpos.
      rewrite (proj2 (N.ltb_lt _ _)) by lia. reflexivity.
  Qed.

  Lemma existsb_offs rs : forall base off,
    existsb (fun p : N * option bytes => N.eqb (fst p) off) (offs base rs) = true ->
    exists k, off = base + lenN (encs (firstn k rs)).
  Proof.
    induction rs as [|r rs IH]; intros base off H; [discriminate H|].
    cbn [offs existsb fst] in H. apply orb_true_iff in H. destruct H as [H|H].
    - apply N.eqb_eq in H. exists 0%nat. cbn. lia.
    - apply IH in H. destruct H as (k & H). exists (S k). cbn [firstn]. rewrite encs_cons, lenN_app. lia.
  Qed.

  Lemma read_at_offs rs pre off r : Forall size_ok rs -> In (off, r) (offs (lenN pre) rs) ->
    read_at c (pre ++ encs rs) off = Ok r.
  Proof.
    intros HF H. apply offs_in in H. destruct H as (p & q & -> & ->).
    rewrite <- lenN_app, encs_app, app_assoc. apply read_at_one. exact (Forall_elt _ _ _ HF).
  Qed.

  Definition wrep_recs (s : wstate) (rs : list (option bytes)) : Prop :=
    wrep s (file_hdr (ctype c) ++ encs rs) /\ Forall size_ok rs.

  Lemma wrep_recs_cur s rs : wrep_recs s rs -> w_cur s = 8 + lenN (encs rs).
  Proof. intros [(junk & _ & Hc & _) _]. rewrite Hc. apply lenN_app. Qed.

  Lemma wrep_recs_open : wrep_recs (w_open c) [].
  Proof. split; [|constructor]. cbn [encs flat_map]. rewrite app_nil_r. apply wrep_open. Qed.

  Lemma wrep_recs_write s rs r : wrep_recs s rs -> size_ok r -> wrep_recs (fst (w_write c r s)) (rs ++ [r]).
  Proof.
    intros [Hw Hs] Hr. split; [rewrite encs_snoc, app_assoc; apply wrep_write, Hw|].
    apply Forall_app. split; [exact Hs|]. constructor; [exact Hr|constructor].
  Qed.

  Lemma wrep_recs_seek s rs k :
    wrep_recs s rs ->
    wrep_recs (mkW (w_file s) (8 + lenN (encs (firstn k rs))) (N.max (w_largest s) (w_cur s))) (firstn k rs).
  Proof.
    intros [Hw Hs]. rewrite (encs_split k rs), app_assoc in Hw. apply wrep_seek in Hw.
    - rewrite lenN_app in Hw. split; [exact Hw|].
      rewrite <- (firstn_skipn k rs) in Hs. apply Forall_app in Hs. apply Hs.
    - rewrite lenN_app. apply N.le_add_r.
  Qed.

  Lemma wrep_recs_close s rs : wrep_recs s rs ->
    w_close s = file_hdr (ctype c) ++ encs rs /\ w_cur s = lenN (w_close s).
  Proof. intros [Hw _]. destruct (wrep_close _ _ Hw) as [Hc Hz]. rewrite Hc. split; [reflexivity|exact Hz]. Qed.

  Lemma fst_w_run_write r rest s :
    fst (w_run c (WWrite r :: rest) s) = fst (w_run c rest (fst (w_write c r s))).
  Proof.
    cbn [w_run]. destruct (w_write c r s) as [s' off]. cbn [fst]. destruct (w_run c rest s'). reflexivity.
  Qed.

  Lemma fst_w_run_seek off rest s s' : w_seek off s = Ok s' ->
    fst (w_run c (WSeek off :: rest) s) = fst (w_run c rest s').
  Proof. intro H. cbn [w_run]. rewrite H. destruct (w_run c rest s'). reflexivity. Qed.

  Lemma run_inv ops : forall s rs,
    wrep_recs s rs -> prog_ok ops (w_cur s) (offs 8 rs) = true -> Forall op_ok ops ->
    exists rs', survivors c ops (w_cur s) (offs 8 rs) = offs 8 rs' /\ wrep_recs (fst (w_run c ops s)) rs'.
  Proof.
    induction ops as [|[r|off] ops IH]; intros s rs Hinv Hp Hok.
    - exists rs. split; [reflexivity|exact Hinv].
    - inversion_clear Hok as [|? ? Ho Hok']. cbn [prog_ok survivors] in *.
      pose proof (wrep_recs_cur _ _ Hinv) as Hc.
      replace (offs 8 rs ++ [(w_cur s, r)]) with (offs 8 (rs ++ [r])) in * by (rewrite offs_snoc, Hc; reflexivity).
      rewrite fst_w_run_write, <- w_cur_write in *. apply IH; [apply wrep_recs_write| |]; assumption.
    - inversion_clear Hok as [|? ? _ Hok']. cbn [prog_ok survivors] in *.
      apply andb_true_iff in Hp. destruct Hp as [Hsel Hp]. pose proof (wrep_recs_cur _ _ Hinv) as Hc.
      assert (Hk : exists k, off = 8 + lenN (encs (firstn k rs))).
      { apply orb_true_iff in Hsel. destruct Hsel as [H|H]; [|exact (existsb_offs _ _ _ H)].
        apply N.eqb_eq in H. exists (length rs). rewrite firstn_all. congruence. }
      destruct Hk as (k & ->). pose proof (encs_firstn_le k rs) as Hle.
      assert (Ht : (8 + lenN (encs (firstn k rs)) <? file_header_size) || (w_cur s <? 8 + lenN (encs (firstn k rs))) = false)
        by (apply orb_false_iff; split; apply N.ltb_ge; [apply N.le_add_r|rewrite Hc; apply N.add_le_mono_l, Hle]).
      erewrite fst_w_run_seek by (rewrite w_seek_eq, Ht; reflexivity). rewrite Ht, filter_offs in *.
      exact (IH _ _ (wrep_recs_seek s rs k Hinv) Hp Hok').
  Qed.

  Lemma run_inv_top ops :
    prog_ok ops 8 [] = true -> Forall op_ok ops ->
    exists rs, surv ops = offs 8 rs /\ Forall size_ok rs
      /\ written ops = file_hdr (ctype c) ++ encs rs
      /\ w_size (fst (w_run c ops (w_open c))) = lenN (written ops).
  Proof.
    intros Hp Hok.
    destruct (run_inv ops (w_open c) [] wrep_recs_open Hp Hok) as (rs & Hsv & Hinv).
    exists rs. split; [exact Hsv|]. split; [exact (proj2 Hinv)|]. exact (wrep_recs_close _ _ Hinv).
  Qed.

  (* true = read, false = skip *)
  Fixpoint mix (prog : list bool) (recs : list (option bytes)) : list (res (option (option bytes))) :=
    match prog, recs with
    | [], _ => []
    | b :: p, r :: rs => Ok (if b then Some r else None) :: mix p rs
    | _ :: _, [] => [Err EOF]
    end.

  Lemma read_mixed_one pre r rest b p : size_ok r ->
    read_mixed c (pre ++ enc_rec c r ++ rest) (lenN pre) (b :: p)
    = Ok (if b then Some r else None)
      :: read_mixed c (pre ++ enc_rec c r ++ rest) (lenN pre + lenN (enc_rec c r)) p.
  Proof.
    intro Hs. cbn [read_mixed]. destruct b; [rewrite read_next_one|rewrite skip_next_one]; trivial.
  Qed.

  Lemma read_mixed_beyond f pos prog : lenN f <= pos ->
    read_mixed c f pos prog = match prog with [] => [] | _ :: _ => [Err EOF] end.
  Proof.
    intros H. destruct prog as [|[] p]; cbn [read_mixed];
      [|rewrite read_next_beyond|rewrite skip_next_beyond]; trivial.
  Qed.

  Lemma read_mixed_concat prog : forall rs pre, Forall size_ok rs ->
    read_mixed c (pre ++ encs rs) (lenN pre) prog = mix prog rs.
  Proof.
    induction prog as [|b prog IH]; intros [|r rs] pre HF; try reflexivity.
    - cbn [encs flat_map]. rewrite app_nil_r. apply read_mixed_beyond, N.le_refl.
    - inversion_clear HF as [|? ? Hr HF'].
      rewrite encs_cons, read_mixed_one, <- lenN_app, app_assoc, IH by assumption. reflexivity.
  Qed.

  Fixpoint complete_prefix (rs : list (option bytes)) (budget : N) : list (option bytes) :=
    match rs with
    | [] => []
    | r :: rest =>
        let n := lenN (enc_rec c r) in
        if n <=? budget then r :: complete_prefix rest (budget - n) else []
    end.

  Lemma firstn_encs_cons b r rs :
    firstn (N.to_nat b) (encs (r :: rs))
    = if lenN (enc_rec c r) <=? b
      then enc_rec c r ++ firstn (N.to_nat (b - lenN (enc_rec c r))) (encs rs)
      else firstn (N.to_nat b) (enc_rec c r).
  Proof.
    rewrite encs_cons. destruct (N.leb_spec (lenN (enc_rec c r)) b) as [H|H].
    - apply firstn_app_past, H.
    - apply firstn_app_short, N.lt_le_incl, H.
  Qed.

  Lemma complete_prefix_prefix rs : forall b, exists rest, rs = complete_prefix rs b ++ rest.
  Proof.
    induction rs as [|r rs IH]; intro b; cbn [complete_prefix]; [exists []; reflexivity|]. cbv zeta.
    destruct (_ <=? b); [|exists (r :: rs); reflexivity].
    destruct (IH (b - lenN (enc_rec c r))) as (rest & H). exists rest. cbn [app]. rewrite <- H. reflexivity.
  Qed.

  Lemma complete_prefix_fits rs : forall b, lenN (encs (complete_prefix rs b)) <= b.
  Proof.
    induction rs as [|r rs IH]; intro b; cbn [complete_prefix]; [apply N.le_0_l|]. cbv zeta.
    destruct (N.leb_spec (lenN (enc_rec c r)) b) as [H|H]; [|apply N.le_0_l].
    rewrite encs_cons, lenN_app. specialize (IH (b - lenN (enc_rec c r))). lia.
  Qed.

  Lemma complete_prefix_full pre r post : forall b, lenN (encs (pre ++ [r])) <= b ->
    exists rest, complete_prefix (pre ++ r :: post) b = pre ++ r :: rest.
  Proof.
    induction pre as [|x pre IH]; intros b H; cbn [app complete_prefix]; cbv zeta;
      cbn [app] in H; rewrite encs_cons, lenN_app in H; rewrite (proj2 (N.leb_le _ _)) by lia.
    - eexists. reflexivity.
    - destruct (IH (b - lenN (enc_rec c x))) as (rest & ->); [lia|]. eexists. reflexivity.
  Qed.

  Lemma read_all_cut_file rs : forall fuel pre b, Forall size_ok rs -> (length rs < fuel)%nat ->
    exists e, eofish e
      /\ read_all fuel c (pre ++ firstn (N.to_nat b) (encs rs)) (lenN pre)
         = map (fun r => Ok r) (complete_prefix rs b) ++ [Err e].
  Proof.
    induction rs as [|r rs IH]; intros [|fuel] pre b HF HL; try destruct (Nat.nlt_0_r _ HL);
      cbn [read_all complete_prefix].
    - exists EOF. split; [left; reflexivity|]. rewrite firstn_nil, app_nil_r, read_next_end. reflexivity.
    - inversion_clear HF as [|? ? Hr HF']. rewrite firstn_encs_cons. cbv zeta.
      destruct (N.leb_spec (lenN (enc_rec c r)) b) as [Hle|Hgt].
      + destruct (IH fuel (pre ++ enc_rec c r) (b - lenN (enc_rec c r)) HF') as (e & He & Hrd);
          [exact (proj2 (Nat.succ_lt_mono _ _) HL)|].
        exists e. split; [exact He|].
        rewrite read_next_one, <- lenN_app, app_assoc, Hrd by exact Hr. reflexivity.
      + destruct (read_next_cut pre r _ Hr (pprefix_cut _ _ Hgt)) as (e & He & Hrd).
        exists e. split; [exact He|]. rewrite Hrd. reflexivity.
  Qed.

  Definition no_rec (l : list (res (option (option bytes)))) : Prop := forall x, ~ In (Ok (Some x)) l.

  Lemma read_mixed_cut pre r t prog : size_ok r -> pprefix t (enc_rec c r) ->
    no_rec (read_mixed c (pre ++ t) (lenN pre) prog).
  Proof.
    intros Hs Hp x. destruct prog as [|[] p]; cbn [read_mixed]; [intros []| |].
    - destruct (read_next_cut pre r t Hs Hp) as (e & _ & ->). intros [H|[]]; discriminate H.
    - destruct (enc_rec_cut r t Hs Hp) as (u & cs & Hu & Hc & [Hh | (t' & -> & _ & Hlt)]).
      + destruct (next_cut_hdr pre u cs _ t Hu Hc Hh) as (e & _ & _ & ->). intros [H|[]]; discriminate H.
      + apply N.ltb_lt in Hlt. rewrite skip_next_hdr, read_mixed_beyond by (assumption || (rewrite !lenN_app; lia)).
        destruct p; [intros [H|[]]|intros [H|[H|[]]]]; discriminate H.
  Qed.

  Lemma read_mixed_cut_file rs : forall prog pre b i x, Forall size_ok rs ->
    nth_error (read_mixed c (pre ++ firstn (N.to_nat b) (encs rs)) (lenN pre) prog) i = Some (Ok (Some x)) ->
    nth_error rs i = Some x /\ lenN (encs (firstn (S i) rs)) <= b.
  Proof.
    induction rs as [|r rs IH]; intros prog pre b i x HF H.
    - rewrite firstn_nil, app_nil_r, read_mixed_beyond in H by apply N.le_refl.
      apply nth_error_In in H. destruct prog; [destruct H|destruct H as [H|[]]; discriminate H].
    - inversion_clear HF as [|? ? Hr HF']. rewrite firstn_encs_cons in H.
      destruct (N.leb_spec (lenN (enc_rec c r)) b) as [Hle|Hgt].
      + destruct prog as [|b0 p]; [destruct i; discriminate H|].
        rewrite read_mixed_one, <- lenN_app, app_assoc in H by exact Hr.
        cbn [firstn]. rewrite encs_cons, lenN_app. destruct i as [|i]; cbn [nth_error] in H.
        * destruct b0; [|discriminate H]. injection H as ->. split; [reflexivity|]. cbn. lia.
        * apply IH in H; [|exact HF']. split; [apply H|]. destruct H as [_ H]. lia.
      + apply nth_error_In in H. destruct (read_mixed_cut pre r _ prog Hr (pprefix_cut _ _ Hgt) x H).
  Qed.

  (* C12 for random access *)
  Lemma read_at_cut_file P r rest n : size_ok r ->
    let f := P ++ enc_rec c r ++ rest in
    (lenN P + lenN (enc_rec c r) <= n -> read_at c (firstn (N.to_nat n) f) (lenN P) = Ok r)
    /\ (n < lenN P + lenN (enc_rec c r) -> exists e, read_at c (firstn (N.to_nat n) f) (lenN P) = Err e).
  Proof.
    intros Hr f. subst f. split; intro Hn.
    - rewrite firstn_app_past by exact (N.le_trans _ _ _ (N.le_add_r _ _) Hn).
      rewrite firstn_app_past by apply N.le_add_le_sub_l, Hn. apply read_at_one, Hr.
    - destruct (N.lt_ge_cases n (lenN P)) as [Hlt|Hge].
      + exists Other. unfold read_at. rewrite (proj2 (N.ltb_lt _ _)); [reflexivity|].
        rewrite lenN_firstn. apply N.min_lt_iff. left. exact Hlt.
      + rewrite firstn_app_past, firstn_app_short by lia.
        apply (read_at_cut P r); [exact Hr|apply pprefix_cut; lia].
  Qed.

  (* Only write_then_read reads the bound on the compression code (the reader checks the code when it opens the file);
     the other theorems of this block hold for any code. *)
  Hypothesis ctype_ok : ctype c <= 3.

  Theorem written_is_concat ops :
    prog_ok ops 8 [] = true -> Forall op_ok ops ->
    written ops = file_hdr (ctype c) ++ flat_map (fun p => enc_rec c (snd p)) (surv ops)
    /\ w_size (fst (w_run c ops (w_open c))) = lenN (written ops).
  Proof using ctype_ok.
    intros Hp Hok. destruct (run_inv_top ops Hp Hok) as (rs & Hsv & Hsz & Hw & Hsize).
    split; [|exact Hsize]. rewrite Hw, Hsv, <- (flat_map_map (enc_rec c) snd), map_snd_offs. reflexivity.
  Qed.

  Theorem surv_offsets ops :
    prog_ok ops 8 [] = true -> Forall op_ok ops ->
    forall pre off r post, surv ops = pre ++ (off, r) :: post ->
      off = 8 + lenN (flat_map (fun p => enc_rec c (snd p)) pre).
  Proof using ctype_ok.
    intros Hp Hok pre off r post H.
    destruct (run_inv_top ops Hp Hok) as (rs & Hsv & _).
    rewrite Hsv in H. apply offs_split in H. rewrite <- (flat_map_map (enc_rec c) snd). exact H.
  Qed.

  Theorem write_returns_cur r s : snd (w_write c r s) = w_cur s.
  Proof. destruct r; reflexivity. Qed.

  Theorem write_then_read ops fuel :
    prog_ok ops 8 [] = true -> Forall op_ok ops -> (length (surv ops) < fuel)%nat ->
    r_open (written ops) = Ok 8
    /\ read_all fuel c (written ops) 8 = map (fun p => Ok (snd p)) (surv ops) ++ [Err EOF].
  Proof using codec_ok ctype_ok.
    intros Hp Hok Hfuel. destruct (run_inv_top ops Hp Hok) as (rs & Hsv & Hsz & Hw & _).
    rewrite Hw, Hsv in *. split.
    - unfold r_open. rewrite parse_file_hdr_ok by exact ctype_ok. reflexivity.
    - rewrite <- (map_map snd (fun r => Ok r)), map_snd_offs.
      apply (read_all_concat rs fuel (file_hdr (ctype c)) Hsz).
      rewrite <- (map_snd_offs rs 8), map_length. exact Hfuel.
  Qed.

  Theorem offsets_are_addresses ops :
    prog_ok ops 8 [] = true -> Forall op_ok ops ->
    forall off r, In (off, r) (surv ops) -> read_at c (written ops) off = Ok r.
  Proof using codec_ok ctype_ok.
    intros Hp Hok off r Hin. destruct (run_inv_top ops Hp Hok) as (rs & Hsv & Hsz & Hw & _).
    rewrite Hw. rewrite Hsv in Hin. exact (read_at_offs rs (file_hdr (ctype c)) off r Hsz Hin).
  Qed.

  Theorem skip_is_read_discard ops prog :
    prog_ok ops 8 [] = true -> Forall op_ok ops ->
    read_mixed c (written ops) 8 prog = mix prog (map snd (surv ops)).
  Proof using codec_ok ctype_ok.
    intros Hp Hok. destruct (run_inv_top ops Hp Hok) as (rs & Hsv & Hsz & Hw & _).
    rewrite Hw, Hsv, map_snd_offs. apply (read_mixed_concat prog rs (file_hdr (ctype c)) Hsz).
  Qed.

  (* C12 for the sequential reader: after the records inside the cut, EOF or unexpected EOF - never
     anything else *)
  Theorem truncation_prefix (rs : list (option bytes)) (n : N) fuel :
    Forall size_ok rs -> 8 <= n ->
    let f := file_hdr (ctype c) ++ flat_map (enc_rec c) rs in
    n <= lenN f -> (length rs < fuel)%nat ->
    exists e, (e = EOF \/ e = UnexpectedEOF)
      /\ read_all fuel c (firstn (N.to_nat n) f) 8
         = map (fun r => Ok r) (complete_prefix rs (n - 8)) ++ [Err e].
  Proof using codec_ok ctype_ok.
    intros HF Hn f _ Hfuel. subst f. rewrite firstn_app_past by exact Hn.
    exact (read_all_cut_file rs fuel (file_hdr (ctype c)) (n - 8) HF Hfuel).
  Qed.

  (* C12 under programs of ReadNext and SkipNext *)
  Theorem truncation_mixed (rs : list (option bytes)) (n : N) (prog : list bool) :
    Forall size_ok rs -> 8 <= n ->
    let f := file_hdr (ctype c) ++ flat_map (enc_rec c) rs in
    n <= lenN f ->
    forall i x, nth_error (read_mixed c (firstn (N.to_nat n) f) 8 prog) i = Some (Ok (Some x)) ->
      nth_error rs i = Some x /\ 8 + lenN (flat_map (enc_rec c) (firstn (S i) rs)) <= n.
  Proof using codec_ok ctype_ok.
    intros HF Hn f _ i x H. subst f. rewrite firstn_app_past in H by exact Hn.
    destruct (read_mixed_cut_file rs prog (file_hdr (ctype c)) (n - 8) i x HF H) as [H1 H2].
    split; [exact H1|]. unfold encs in H2. lia.
  Qed.

  Theorem truncation_read_at (rs : list (option bytes)) (n : N) pre r post :
    Forall size_ok rs -> rs = pre ++ r :: post ->
    let f := file_hdr (ctype c) ++ flat_map (enc_rec c) rs in
    let off := 8 + lenN (flat_map (enc_rec c) pre) in
    n <= lenN f ->
    (off + lenN (enc_rec c r) <= n -> read_at c (firstn (N.to_nat n) f) off = Ok r)
    /\ (n < off + lenN (enc_rec c r) -> exists e, read_at c (firstn (N.to_nat n) f) off = Err e).
  Proof using codec_ok ctype_ok.
    intros HF -> f off _. subst f off. apply Forall_elt in HF.
    rewrite flat_map_app, app_assoc. cbn [flat_map].
    change 8 with (lenN (file_hdr (ctype c))). rewrite <- lenN_app.
    exact (read_at_cut_file _ r _ n HF).
  Qed.
End Facts.

(* non-vacuity: a program with a nil record, an empty record, a marker byte and a seek-back *)
Definition id_codec : codec := mkCodec 0 (fun x => x) (fun x => Ok x).
Example write_read_example :
  let ops := [WWrite (Some [1; 2; 0x91]); WWrite None; WWrite (Some []); WSeek 21; WWrite (Some [7])] in
  prog_ok id_codec ops 8 [] = true
  /\ surv id_codec ops = [(8, Some [1; 2; 0x91]); (21, Some [7])]
  /\ read_all 5 id_codec (written id_codec ops) 8 = [Ok (Some [1; 2; 0x91]); Ok (Some [7]); Err EOF].
Proof. vm_compute. repeat split; reflexivity. Qed.

Print Assumptions written_is_concat.
Print Assumptions surv_offsets.
Print Assumptions write_returns_cur.
Print Assumptions write_then_read.
Print Assumptions offsets_are_addresses.
Print Assumptions skip_is_read_discard.
Print Assumptions truncation_prefix.
Print Assumptions truncation_mixed.
Print Assumptions truncation_read_at.
Print Assumptions write_read_example.

(* non-vacuity of truncation_mixed: three records (the middle one nil), cut inside the payload of the third; the
   skip of the cut record succeeds (it only seeks), nothing is returned after it *)
Example truncation_mixed_example :
  let rs := [Some [1; 2; 3]; None; Some [9; 9; 9; 9]] in
  let f := file_hdr 0 ++ flat_map (enc_rec id_codec) rs in
  lenN f = 47 /\
  read_mixed id_codec (firstn 45 f) 8 [false; true; false; true] = [Ok None; Ok (Some None); Ok None; Err EOF]
  /\ read_mixed id_codec (firstn 45 f) 8 [true; false; true] = [Ok (Some (Some [1; 2; 3])); Ok None; Err UnexpectedEOF].
Proof. vm_compute. repeat split; reflexivity. Qed.
