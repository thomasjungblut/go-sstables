(* C20: the published Kaitai schema decodes every written file to the same records.
   The schema's payload-length expression, magic and enum come from gen/FactsKsy.v (regenerated
   from kaitai/recordio_v4.ksy on every run): ksy_len_known, ksy_len_ok and ksy_magic_ok are the
   proof obligations on the generated text, so a change of the schema breaks them. *)
From GoSST Require Import Base.Bytes Base.ListFacts Base.Varint Base.VarintFacts Base.Crc.
From GoSST Require Import RecordIO.Format RecordIO.FormatFacts RecordIO.Kaitai.
From GoSSTGen Require Import FactsKsy FactsConst.
From Coq Require Import Lia String.
From Coq Require Import List. (* after String: [length] is the list one in the helper lemmas *)
Local Open Scope N_scope.

Lemma ksy_len_known : ksy_len_payload_known = true.
Proof. reflexivity. Qed.

Lemma ksy_len_ok rnil usz csz ct :
  ksy_len_payload rnil usz csz ct = if rnil =? 1 then 0 else if ct =? 0 then usz else csz.
Proof. reflexivity. Qed.

Lemma ksy_magic_ok : ksy_magic = marker.
Proof. reflexivity. Qed.

Theorem enum_covers_writer :
  In (f_comp_none, "none"%string) ksy_compression_enum
  /\ In (f_comp_gzip, "gzip"%string) ksy_compression_enum
  /\ In (f_comp_snappy, "snappy"%string) ksy_compression_enum
  /\ In (f_comp_lzw, "lzw"%string) ksy_compression_enum
  /\ f_comp_none = 0 /\ f_comp_gzip = 1 /\ f_comp_snappy = 2 /\ f_comp_lzw = 3.
Proof. vm_compute. repeat split; auto 6. Qed.

Lemma shiftl_group a c s :
  N.shiftl (N.lor (N.land a 127) (N.shiftl c 7)) s = N.shiftl (N.land a 127) s + N.shiftl c (s + 7).
Proof.
  rewrite group_add. change 127 with (N.ones 7). rewrite N.land_ones, !N.shiftl_mul_pow2, N.pow_add_r.
  change (2 ^ 7) with 128. lia.
Qed.

Lemma vlq_sum_nil n s : vlq_sum n s [] = 0.
Proof. destruct n; reflexivity. Qed.

Lemma vlq_groups_framed e : forall fg rest, framed e = true -> (length e <= fg)%nat ->
  exists gs, vlq_groups fg (e ++ rest) = Some (gs, rest)
             /\ forall n s, (length e <= n)%nat -> vlq_sum n s gs = N.shiftl (uv_val e) s.
Proof.
  induction e as [|b e IH]; intros fg rest He Hfg; [discriminate|].
  destruct fg as [|fg]; [cbn [length] in Hfg; lia|]. cbn [framed length app vlq_groups] in *.
  destruct (N.ltb_spec b 128) as [Hb|Hb].
  - destruct e; [|discriminate]. exists [b]. split; [reflexivity|]. intros [|n] s Hn; [lia|].
    cbn [vlq_sum]. rewrite vlq_sum_nil, uv_val_single by exact Hb. lia.
  - destruct (IH fg rest He) as (gs & -> & Hsum); [lia|]. eexists. split; [reflexivity|].
    intros [|n] s Hn; [lia|]. cbn [vlq_sum uv_val]. rewrite Hsum by lia. symmetry. apply shiftl_group.
Qed.

(* at most eight bytes: the schema's value instance adds up eight groups *)
Lemma vlq_framed e rest : framed e = true -> (length e <= 8)%nat -> vlq (e ++ rest) = Some (uv_val e, rest).
Proof.
  intros He Hl. unfold vlq, vlq_value.
  destruct (vlq_groups_framed e (S (length (e ++ rest))) rest He) as (gs & -> & Hsum).
  - rewrite app_length. lia.
  - rewrite Hsum by exact Hl. rewrite N.shiftl_0_r. reflexivity.
Qed.

Lemma vlq_uv_enc x rest : x < 2 ^ 56 -> vlq (uv_enc x ++ rest) = Some (x, rest).
Proof.
  intro Hx. assert (H64 : x < 2 ^ 64) by (apply N.lt_trans with (2 ^ 56); [exact Hx|reflexivity]).
  destruct (uv_enc_framed_val x H64) as [Hf Hv]. rewrite vlq_framed, Hv; [reflexivity|exact Hf|].
  apply uv_enc_fuel_len_small, Hx.
Qed.

Lemma ks_read_record_hdr ct usz csz (isnil : bool) pl rest :
  usz < 2 ^ 56 -> csz < 2 ^ 56 ->
  N.to_nat (ksy_len_payload (if isnil then 1 else 0) usz csz ct) = length pl ->
  ks_read_record ct (hdr usz csz isnil ++ pl ++ rest)
  = Some (mkKs (if isnil then 1 else 0) usz csz (crc32c (hdr_prefix usz csz isnil)) pl, rest).
Proof.
  intros Hu Hc Hn. unfold ks_read_record. rewrite hdr_eq.
  assert (Hcrc : crc32c (hdr_prefix usz csz isnil) < 2 ^ 56) by (apply hdr_crc_lt; discriminate).
  set (crc := crc32c _) in *.
  rewrite ksy_magic_ok. unfold marker. cbn [app firstn skipn].
  change (negb (bytes_eqb [145; 141; 76] [145; 141; 76])) with false. cbv iota.
  rewrite <- !app_assoc, !vlq_uv_enc by assumption.
  set (n := ksy_len_payload _ usz csz ct) in *.
  replace (lenN (pl ++ rest) <? n) with false.
  2:{ symmetry. apply N.ltb_ge. unfold lenN. rewrite app_length. clear - Hn. lia. }
  rewrite Hn, firstn_len_app, skipn_len_app. reflexivity.
Qed.

Section Facts.
  Variable c : codec.

  (* FormatFacts.rec_payload and rec_stored c, under the names the statement of C20 uses *)
  Definition payload (r : option bytes) : bytes := match r with Some p => p | None => [] end.
  Definition stored (r : option bytes) : bytes :=
    match r with None => [] | Some p => if compressed c then comp c p else p end.
  Definition ksize_ok (r : option bytes) : Prop :=
    lenN (payload r) < 2 ^ 56 /\ lenN (comp c (payload r)) < 2 ^ 56.

  Definition agrees (r : option bytes) (k : ks_record) : Prop :=
    k_nil k = (match r with None => 1 | Some _ => 0 end)
    /\ k_payload k = stored r
    /\ k_usz k = lenN (payload r)
    /\ k_csz k = (if compressed c then lenN (comp c (payload r)) else 0).

  Lemma ks_read_enc_rec r rest :
    ksize_ok r ->
    exists k, ks_read_record (ctype c) (enc_rec c r ++ rest) = Some (k, rest) /\ agrees r k.
  Proof.
    intros [Hu Hz]. rewrite enc_rec_eq, <- app_assoc, ks_read_record_hdr.
    - eexists. split; [reflexivity|]. destruct r; repeat split.
    - exact Hu.
    - destruct (compressed c); [exact Hz|reflexivity].
    - rewrite ksy_len_ok. destruct r as [p|]; [|reflexivity].
      cbn [isnone rec_stored rec_payload]. unfold compressed. change (0 =? 1) with false. cbv iota.
      destruct (ctype c =? 0); apply to_nat_lenN.
  Qed.

  (* each record consumes at least one byte, so fuel above the length is enough *)
  Lemma ks_records_enc (rs : list (option bytes)) :
    Forall ksize_ok rs ->
    forall fuel, (length (flat_map (enc_rec c) rs) < fuel)%nat ->
    exists krs, ks_records fuel (ctype c) (flat_map (enc_rec c) rs) = Some krs /\ Forall2 agrees rs krs.
  Proof.
    induction rs as [|r rs IH]; intros Hall fuel Hfuel.
    - destruct fuel as [|fuel]; [lia|]. exists []. split; [reflexivity|constructor].
    - inversion Hall as [|? ? Hr Hrs]; subst.
      destruct fuel as [|fuel]; [lia|].
      cbn [flat_map] in *. rewrite app_length in Hfuel.
      pose proof (enc_rec_pos c r) as Hne. unfold lenN in Hne.
      destruct (ks_read_enc_rec r (flat_map (enc_rec c) rs) Hr) as [k [Hk Hag]].
      destruct (IH Hrs fuel) as [krs [Hkrs Hags]]; [lia|].
      exists (k :: krs). split; [|constructor; assumption].
      cbn [ks_records]. rewrite Hk, Hkrs.
      destruct (enc_rec c r ++ flat_map (enc_rec c) rs) as [|b l] eqn:E; [|reflexivity].
      apply (f_equal (@length N)) in E. rewrite app_length in E. cbn [length] in E. lia.
  Qed.

  Hypothesis ctype_ok : ctype c <= 3.

  Theorem kaitai_agrees (rs : list (option bytes)) :
    Forall ksize_ok rs ->
    exists krs,
      ks_parse (file_hdr (ctype c) ++ flat_map (enc_rec c) rs) = Some (4, ctype c, krs)
      /\ Forall2 agrees rs krs.
  Proof.
    intro Hall. unfold ks_parse.
    replace (lenN (file_hdr (ctype c) ++ flat_map (enc_rec c) rs) <? 8) with false
      by (symmetry; apply N.ltb_ge, lenN_file_hdr).
    destruct (file_hdr_words (ctype c) (flat_map (enc_rec c) rs) ctype_ok) as [-> ->].
    change (skipn 8 (file_hdr (ctype c) ++ ?b)) with b.
    destruct (ks_records_enc rs Hall (S (length (file_hdr (ctype c) ++ flat_map (enc_rec c) rs))))
      as [krs [Hk Hag]].
    { rewrite app_length. lia. }
    exists krs. rewrite Hk. split; [reflexivity|exact Hag].
  Qed.
End Facts.

Definition id_codec : codec := mkCodec 0 (fun x => x) (fun x => Ok x).
(* a "compressor" that is not the identity, to exercise the compressed branch incl. nil records *)
Definition pad_codec : codec := mkCodec 2 (fun x => 7 :: x ++ [9]) (fun z => Ok (removelast (tl z))).

Example kaitai_example :
  ks_parse (file_hdr 2 ++ flat_map (enc_rec pad_codec) [Some [1; 2; 3]; None; Some []])
  = Some (4, 2, [mkKs 0 3 5 (crc32c (hdr_prefix 3 5 false)) [7; 1; 2; 3; 9];
                 mkKs 1 0 2 (crc32c (hdr_prefix 0 2 true)) [];
                 mkKs 0 0 2 (crc32c (hdr_prefix 0 2 false)) [7; 9]]).
Proof. vm_compute. reflexivity. Qed.

Print Assumptions vlq_uv_enc.
Print Assumptions enum_covers_writer.
Print Assumptions kaitai_agrees.
Print Assumptions kaitai_example.
