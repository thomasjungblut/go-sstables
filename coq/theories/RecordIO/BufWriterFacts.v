(* The buffered writer never reorders, drops or invents bytes: what has reached the file plus what sits in the buffer
   is, at every moment, exactly what the caller handed over, in order - so the file is a byte prefix of the handed
   stream at every boundary between two calls to the underlying writer, and the whole stream after Flush / Close. *)
From GoSST Require Import Base.Bytes RecordIO.BufWriter.
From Coq Require Import Lia.

Lemma written_by_app a b : written_by (a ++ b) = written_by a ++ written_by b.
Proof.
  induction a as [|e a IH]; [reflexivity|].
  destruct e; cbn [app written_by]; rewrite IH; [rewrite app_assoc|..]; reflexivity.
Qed.

Lemma handed_app a b : handed (a ++ b) = handed a ++ handed b.
Proof.
  induction a as [|o a IH]; [reflexivity|]. destruct o; cbn [app handed]; rewrite IH, ?app_assoc; reflexivity.
Qed.

Lemma bw_flush_stream buf : written_by (fst (bw_flush buf)) = buf /\ snd (bw_flush buf) = [].
Proof. destruct buf; split; cbn [bw_flush fst snd written_by]; rewrite ?app_nil_r; reflexivity. Qed.

Lemma bw_write_stream cap buf p : length buf <= cap ->
  written_by (fst (bw_write cap buf p)) ++ snd (bw_write cap buf p) = buf ++ p
  /\ length (snd (bw_write cap buf p)) <= cap.
Proof.
  intros Hb. unfold bw_write.
  destruct (Nat.leb_spec (length p) (cap - length buf)) as [Hfit|Hbig].
  - split; [reflexivity|]. cbn [snd]. rewrite app_length. lia.
  - destruct buf as [|b0 buf']; [cbn; rewrite !app_nil_r; split; [reflexivity|lia]|].
    set (buf := b0 :: buf') in *. set (n := cap - length buf).
    destruct (Nat.leb_spec (length (skipn n p)) cap) as [Hrest|Hrest];
      cbn [fst snd written_by length]; rewrite ?app_nil_r, <- app_assoc, firstn_skipn;
      (split; [reflexivity|lia]).
Qed.

Lemma bw_step_stream cap buf o : length buf <= cap ->
  written_by (fst (bw_step cap buf o)) ++ snd (bw_step cap buf o)
  = buf ++ match o with BWrite p => p | _ => [] end
  /\ length (snd (bw_step cap buf o)) <= cap.
Proof.
  intros Hb. destruct o as [p| |off|]; cbn [bw_step]; [apply bw_write_stream, Hb|..];
    destruct (bw_flush_stream buf) as [H1 H2]; destruct (bw_flush buf) as [e b]; cbn [fst snd] in *;
    subst b; rewrite ?written_by_app, H1; cbn [written_by length]; rewrite !app_nil_r; (split; [reflexivity|lia]).
Qed.

Theorem bw_run_stream cap : forall ops buf, length buf <= cap ->
  written_by (concat (fst (bw_run cap buf ops))) ++ snd (bw_run cap buf ops) = buf ++ handed ops
  /\ length (snd (bw_run cap buf ops)) <= cap.
Proof.
  induction ops as [|o ops IH]; intros buf Hb.
  - cbn. rewrite app_nil_r. split; [reflexivity|exact Hb].
  - cbn [bw_run]. destruct (bw_step_stream cap buf o Hb) as [H1 H2].
    destruct (bw_step cap buf o) as [e b] eqn:E. cbn [fst snd] in H1, H2.
    destruct (IH b H2) as [H3 H4]. destruct (bw_run cap b ops) as [es b'] eqn:E2. cbn [fst snd] in *.
    cbn [concat]. rewrite written_by_app, <- app_assoc, H3. split; [|exact H4].
    rewrite app_assoc, H1. destruct o; cbn [handed]; rewrite <- ?app_assoc, ?app_nil_r; reflexivity.
Qed.

Theorem bw_file_is_prefix cap ops k :
  let evs := concat (fst (bw_run cap [] ops)) in
  exists rest, handed ops = written_by (firstn k evs) ++ rest.
Proof.
  cbv zeta. destruct (bw_run_stream cap ops [] (Nat.le_0_l cap)) as [H _]. cbn [app] in H.
  set (evs := concat (fst (bw_run cap [] ops))) in *.
  exists (written_by (skipn k evs) ++ snd (bw_run cap [] ops)).
  rewrite app_assoc, <- written_by_app, firstn_skipn. symmetry. exact H.
Qed.

Corollary bw_file_is_firstn cap ops k :
  let evs := concat (fst (bw_run cap [] ops)) in
  written_by (firstn k evs) = firstn (length (written_by (firstn k evs))) (handed ops).
Proof.
  cbv zeta. destruct (bw_file_is_prefix cap ops k) as [rest H]. rewrite H.
  rewrite firstn_app, firstn_all, Nat.sub_diag. cbn [firstn]. rewrite app_nil_r. reflexivity.
Qed.

Lemma bw_run_flushed cap last : last = BFlush \/ last = BClose ->
  forall ops buf, snd (bw_run cap buf (ops ++ [last])) = [].
Proof.
  intros Hl. induction ops as [|o ops IH]; intros buf; cbn [app bw_run].
  - destruct (bw_flush_stream buf) as [_ H2].
    destruct Hl as [-> | ->]; cbn [bw_step]; destruct (bw_flush buf); exact H2.
  - destruct (bw_step cap buf o) as [e b]. specialize (IH b).
    destruct (bw_run cap b (ops ++ [last])). exact IH.
Qed.

Theorem bw_flushed_all cap ops last :
  last = BFlush \/ last = BClose ->
  written_by (concat (fst (bw_run cap [] (ops ++ [last])))) = handed ops.
Proof.
  intros Hl. destruct (bw_run_stream cap (ops ++ [last]) [] (Nat.le_0_l cap)) as [H _].
  rewrite (bw_run_flushed cap last Hl), handed_app, app_nil_r in H. rewrite H.
  destruct Hl as [-> | ->]; apply app_nil_r.
Qed.

Local Open Scope N_scope.
(* non-vacuity: a 4-byte buffer; a write that fits, one that fills and overflows the buffer, one that bypasses it *)
Example bw_example :
  bw_run 4%nat [] [BWrite [1; 2]; BWrite [3; 4; 5]; BWrite [6; 7; 8; 9; 10; 11]; BWrite [12; 13; 14; 15; 16; 17]; BWrite [18]; BClose]
  = ([[]; [EWrite [1; 2; 3; 4]]; [EWrite [5; 6; 7; 8]]; [EWrite [9; 10; 11; 12]; EWrite [13; 14; 15; 16; 17]]; [];
      [EWrite [18]; EClose]], []).
Proof. reflexivity. Qed.

Print Assumptions bw_run_stream.
Print Assumptions bw_file_is_prefix.
Print Assumptions bw_flushed_all.
