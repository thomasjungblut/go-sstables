(* C09: whatever happened to the bytes of the data file, a checked read never returns a value
   whose CRC-64 differs from the checksum stored in the index (unless that checksum is zero: the
   format's escape for empty / nil values and legacy tables).  C11: an offset behind the data file is a read error. *)
From GoSST Require Import Base.Bytes Base.Crc Base.CrcFacts RecordIO.Format RecordIO.MmapReader.
From GoSST Require Import SST.TableWriter SST.Index SST.TableReader.
From Coq Require Import Lia.
Local Open Scope N_scope.

Lemma get_value_at_eq (r : reader) off crc skip :
  get_value_at r off crc skip =
  match read_at (r_cd r) (r_data r) off with
  | Err e => Err e
  | Ok val => if skip || (crc64iso (payload_of val) =? crc) || (crc =? 0) then Ok val else Err ValueChecksum
  end.
Proof.
  unfold get_value_at. destruct (read_at (r_cd r) (r_data r) off) as [val|e]; [|reflexivity].
  destruct skip, (crc64iso (payload_of val) =? crc), (crc =? 0); reflexivity.
Qed.

Theorem checked_read_same_crc (r : reader) (off crc : N) (v : option bytes) :
  get_value_at r off crc false = Ok v -> crc64iso (payload_of v) = crc \/ crc = 0.
Proof.
  rewrite get_value_at_eq. destruct (read_at (r_cd r) (r_data r) off) as [val|e]; [|discriminate].
  cbn [orb]. destruct (N.eqb_spec (crc64iso (payload_of val)) crc) as [E|_].
  - intros H. injection H as <-. left. exact E.
  - destruct (N.eqb_spec crc 0) as [Z|_]; [right; exact Z|discriminate].
Qed.

Lemma validate_all_spec (r : reader) (es : list ientry) :
  validate_all r es = Ok tt ->
  forall e, In e es -> exists v, get_value_at r (snd (fst e)) (snd e) false = Ok v.
Proof.
  induction es as [|e0 es IH]; intros H e Hin; [destruct Hin|].
  cbn [validate_all] in H.
  destruct (get_value_at r (snd (fst e0)) (snd e0) false) as [v|x] eqn:E; [|discriminate].
  destruct Hin as [->|Hin]; [exists v; exact E|apply IH; assumption].
Qed.

Lemma unchecked_agrees (r : reader) off crc v :
  get_value_at r off crc false = Ok v -> get_value_at r off crc true = Ok v.
Proof.
  rewrite !get_value_at_eq. destruct (read_at (r_cd r) (r_data r) off) as [val|e]; [|discriminate].
  cbn [orb]. destruct (_ || _); [auto|discriminate].
Qed.

(* default options (verify on load): for ANY data bytes *)
Theorem load_validates_all (ld : loader) (ci cd : codec) (index_file data_file : bytes) bloom (r : reader) :
  open_reader ld ci cd index_file data_file bloom false false = Ok r ->
  forall es, idx_all r = Ok es ->
  forall e, In e es ->
  exists v, get_value_at r (snd (fst e)) (snd e) true = Ok v
            /\ (crc64iso (payload_of v) = snd e \/ snd e = 0).
Proof.
  unfold open_reader. intros H es Hall e Hin.
  destruct (match ld with LDisk _ => _ | _ => _ end) as [ents|x]; [|discriminate].
  destruct (parse_file_hdr data_file) as [hd|x]; [|discriminate].
  cbn [negb] in H.
  set (r0 := mkReader ld ci cd index_file ents data_file bloom false) in *.
  destruct (idx_all r0) as [all|x] eqn:Eall; [|discriminate].
  destruct (validate_all r0 all) as [u|x] eqn:Ev; [|discriminate].
  inversion H; subst r. rewrite Eall in Hall. inversion Hall; subst es.
  destruct u. destruct (validate_all_spec r0 all Ev e Hin) as [v Hv].
  exists v. split; [apply unchecked_agrees; exact Hv|eapply checked_read_same_crc; exact Hv].
Qed.

(* single-byte damage of an uncompressed payload: by the CRC-64 burst lemma the damaged value can never
   pass the check (no probabilistic assumption) *)
Corollary damaged_value_rejected (r : reader) (off : N) (pre post : bytes) (b b' : N) :
  Forall (fun x => x < 256) pre -> Forall (fun x => x < 256) post -> b < 256 -> b' < 256 -> b <> b' ->
  crc64iso (pre ++ b :: post) <> 0 ->
  read_at (r_cd r) (r_data r) off = Ok (Some (pre ++ b' :: post)) ->
  get_value_at r off (crc64iso (pre ++ b :: post)) false = Err ValueChecksum.
Proof.
  intros Hpre Hpost Hb Hb' Hne Hnz Hread. rewrite get_value_at_eq, Hread. cbn [payload_of orb].
  rewrite (proj2 (N.eqb_neq _ _) Hnz), orb_false_r.
  rewrite (proj2 (N.eqb_neq _ _)); [reflexivity|].
  intros E. symmetry in E. revert E. apply crc64iso_one_byte; assumption.
Qed.

Print Assumptions checked_read_same_crc.
Print Assumptions load_validates_all.
Print Assumptions damaged_value_rejected.

(* the zero checksum is the format's "no checksum" marker (empty and nil values, legacy tables), but it is also
   the CRC-64/ISO of some non-empty values: for those a per-read check accepts ANY bytes (finding F-C09a) *)
Definition crc0_value : bytes := [0xf4; 0x42; 0x2f; 0xf4; 0x42; 0x2f; 0xf4; 0x12].

Lemma crc0_value_facts : crc0_value <> [] /\ crc64iso crc0_value = 0.
Proof. split; [discriminate | vm_compute; reflexivity]. Qed.

Lemma zero_checksum_value_unprotected (r : reader) (off : N) (v' : option bytes) :
  read_at (r_cd r) (r_data r) off = Ok v' ->
  get_value_at r off (crc64iso crc0_value) false = Ok v'.
Proof.
  intros H. rewrite get_value_at_eq, H, (proj2 crc0_value_facts), orb_true_r. reflexivity.
Qed.

(* commit 3f24fb5 of go-sstables (C11): an index entry whose value offset lies at or behind the end of the data file (the data file
   lost its tail) is a read error under every option - it is never answered with the nil value, which a merge would
   write out as a tombstone *)
Lemma offset_behind_data_is_error (r : reader) (off crc : N) (skip : bool) :
  lenN (r_data r) <= off -> exists e, get_value_at r off crc skip = Err e.
Proof.
  intros H. unfold get_value_at, read_at.
  destruct (lenN (r_data r) <? off) eqn:E; [eexists; reflexivity|].
  assert (S : sub (r_data r) off max_header_size = []).
  { unfold sub. rewrite skipn_all2; [destruct (N.to_nat max_header_size); reflexivity|].
    unfold lenN in H. lia. }
  rewrite S. eexists; reflexivity.
Qed.
Print Assumptions offset_behind_data_is_error.
