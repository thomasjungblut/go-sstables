(* C08 / C11: merging and stacking tables equals the latest-wins union of their contents, and
   faults of inputs or of the output writer are never absorbed. *)
From GoSST Require Import Base.Bytes Base.Order Base.ListFacts Struct.SkipListFacts Struct.Heap Struct.HeapFacts.
From GoSST Require Import SST.Merge.
From Coq Require Import Lia Sorting.Sorted.
Local Open Scope N_scope.

Definition table := list (bytes * mval).      (* None = tombstone *)
Definition tsorted (t : table) : Prop := StronglySorted (fun a b => bcmp (fst a) (fst b) = Lt) t.

(* the latest-wins union takes the oldest table first *)
Fixpoint t_set (k : bytes) (v : mval) (l : table) : table :=
  match l with
  | [] => [(k, v)]
  | (k', v') :: r =>
      match bcmp k k' with
      | Lt => (k, v) :: l
      | Eq => (k, v) :: r
      | Gt => (k', v') :: t_set k v r
      end
  end.
Definition overlay (base newer : table) : table := fold_left (fun acc kv => t_set (fst kv) (snd kv) acc) newer base.
Definition union_latest (tables : list table) : table := fold_left overlay tables [].

Fixpoint t_get (k : bytes) (l : table) : option mval :=
  match l with
  | [] => None
  | (k', v) :: r => if beqb k k' then Some v else t_get k r
  end.

Definition live (l : table) : list (bytes * bytes) :=
  flat_map (fun kv => match snd kv with Some v => [(fst kv, v)] | None => [] end) l.
Definition live_nonempty (l : table) : list (bytes * bytes) :=
  flat_map (fun kv => match snd kv with Some [] => [] | Some v => [(fst kv, v)] | None => [] end) l.

Definition as_stream (t : table) : mstream := map (fun kv => Ok kv) t.

(* one direction of Order.beqb_false, which is the equivalence *)
Lemma beqb_false a b : beqb a b = false -> a <> b.
Proof. apply Order.beqb_false. Qed.

(* tsorted is SkipListFacts' [ascending bcmp] at tables, by definition; the facts are stated for that *)

Definition above {A} (k : bytes) (l : list (bytes * A)) : Prop :=
  Forall (fun b => bcmp k (fst b) = Lt) l.

Lemma assoc_beqb {A} k k' (v : A) r :
  assoc bcmp k ((k', v) :: r) = if beqb k k' then Some v else assoc bcmp k r.
Proof. unfold beqb. simpl. destruct (bcmp k k'); reflexivity. Qed.

Lemma t_get_assoc k (l : table) : t_get k l = assoc bcmp k l.
Proof.
  induction l as [|[k' v] r IH]; [reflexivity|]. rewrite assoc_beqb, <- IH. reflexivity.
Qed.

Lemma t_get_above k (l : table) : above k l -> t_get k l = None.
Proof. rewrite t_get_assoc. apply assoc_all_gt. Qed.

Lemma above_in {A} k (l : list (bytes * A)) x : above k l -> In x l -> bcmp k (fst x) = Lt.
Proof. intros Ha. apply (proj1 (Forall_forall _ _) Ha). Qed.

Lemma t_get_in k v (t : table) : t_get k t = Some v -> In (k, v) t.
Proof. rewrite t_get_assoc. apply (assoc_in bcmp bcmp_laws). Qed.

Lemma t_get_in_iff k v (t : table) : tsorted t -> t_get k t = Some v <-> In (k, v) t.
Proof.
  intros Hs. rewrite t_get_assoc. apply (assoc_in_iff bcmp bcmp_laws), (ascending_nodup bcmp bcmp_laws), Hs.
Qed.

Lemma t_set_above a k v (l : table) : bcmp a k = Lt -> above a l -> above a (t_set k v l).
Proof.
  intros Hak. induction l as [|[k' v'] r IH]; intros Ha; simpl.
  - constructor; [exact Hak|constructor].
  - pose proof (Forall_inv Ha) as H1. pose proof (Forall_inv_tail Ha) as H2.
    destruct (bcmp k k') eqn:E.
    + constructor; [exact Hak|exact H2].
    + constructor; [exact Hak|exact Ha].
    + constructor; [exact H1|apply IH, H2].
Qed.

Lemma t_set_sorted k v (l : table) : tsorted l -> tsorted (t_set k v l).
Proof.
  induction l as [|[k' v'] r IH]; intros Hs; simpl.
  - constructor; constructor.
  - apply StronglySorted_inv in Hs as [Hs Ha]. simpl in Ha.
    destruct (bcmp k k') eqn:E.
    + apply bcmp_eq in E. subst k'. constructor; assumption.
    + constructor; [constructor; assumption|].
      constructor; [exact E|]. eapply (all_gt_trans bcmp bcmp_laws); eassumption.
    + constructor; [apply IH, Hs|]. simpl.
      apply t_set_above; [|exact Ha]. apply (cmp_gt_lt bcmp bcmp_laws). exact E.
Qed.

Lemma t_get_t_set k k' v (l : table) :
  t_get k (t_set k' v l) = if beqb k k' then Some v else t_get k l.
Proof.
  induction l as [|[k2 v2] r IH]; simpl.
  - reflexivity.
  - destruct (bcmp k' k2) eqn:E; simpl.
    + apply bcmp_eq in E. subst k2. destruct (beqb k k'); reflexivity.
    + reflexivity.
    + rewrite IH. destruct (beqb k k') eqn:Ek; [|reflexivity].
      apply beqb_true in Ek. subst k'.
      assert (E2 : bcmp k2 k = Lt) by (apply (cmp_gt_lt bcmp bcmp_laws); exact E).
      rewrite (beqb_gt _ _ E2). reflexivity.
Qed.

Lemma overlay_sorted (newer : table) : forall base, tsorted base -> tsorted (overlay base newer).
Proof.
  unfold overlay. induction newer as [|[k v] r IH]; intros base Hb; simpl; [exact Hb|].
  apply IH. apply t_set_sorted, Hb.
Qed.

(* how a lookup falls through a stack of tables *)
Definition orelse {A} (a b : option A) : option A := match a with Some v => Some v | None => b end.

Lemma orelse_None_r {A} (x : option A) : orelse x None = x.
Proof. destruct x; reflexivity. Qed.

Lemma t_get_overlay k (newer : table) : forall base,
  tsorted newer -> t_get k (overlay base newer) = orelse (t_get k newer) (t_get k base).
Proof.
  unfold overlay. induction newer as [|[k1 v1] r IH]; intros base Hs; simpl; [reflexivity|].
  apply StronglySorted_inv in Hs as [Hs Ha]. simpl in Ha.
  rewrite (IH _ Hs). rewrite t_get_t_set.
  destruct (beqb k k1) eqn:Ek; [|reflexivity].
  apply beqb_true in Ek. subst k1. rewrite (t_get_above _ _ Ha). reflexivity.
Qed.

(* whatever the tables are: every step of the fold is a sorted insert *)
Lemma union_latest_sorted tables : tsorted (union_latest tables).
Proof.
  unfold union_latest. generalize (@nil (bytes * mval)) (SSorted_nil _ : tsorted []).
  induction tables as [|t ts IH]; intros acc Hacc; simpl; [exact Hacc|].
  apply IH, overlay_sorted, Hacc.
Qed.

Fixpoint newest_value (k : bytes) (tables_newest_first : list table) : option mval :=
  match tables_newest_first with
  | [] => None
  | t :: r => match t_get k t with Some v => Some v | None => newest_value k r end
  end.

Lemma newest_value_app k l1 l2 :
  newest_value k (l1 ++ l2) = orelse (newest_value k l1) (newest_value k l2).
Proof.
  induction l1 as [|t r IH]; simpl; [reflexivity|]. destruct (t_get k t); [reflexivity|exact IH].
Qed.

Lemma t_get_fold_overlay k (tables : list table) : forall acc,
  Forall tsorted tables ->
  t_get k (fold_left overlay tables acc) = orelse (newest_value k (rev tables)) (t_get k acc).
Proof.
  induction tables as [|t ts IH]; intros acc Hall; simpl; [reflexivity|].
  rewrite (IH _ (Forall_inv_tail Hall)). rewrite newest_value_app. simpl.
  rewrite (t_get_overlay _ _ _ (Forall_inv Hall)).
  destruct (newest_value k (rev ts)); [reflexivity|]. destruct (t_get k t); reflexivity.
Qed.

Lemma union_latest_get tables k :
  Forall tsorted tables -> t_get k (union_latest tables) = newest_value k (rev tables).
Proof.
  intros H. unfold union_latest. rewrite (t_get_fold_overlay _ _ _ H). simpl.
  apply orelse_None_r.
Qed.

Notation hout := (bytes * mval * N)%type (only parsing).
Definition okey (x : hout) : bytes := fst (fst x).
Definition oval (x : hout) : mval := snd (fst x).
Definition octx (x : hout) : N := snd x.

(* Merge and the compacting iterator are both described as functions of the list of heap outputs, so
   the heap is reasoned about once. *)
Inductive hrun : @heap bytes mval -> list hout -> Prop :=
| hrun_nil : hrun [] []
| hrun_cons h x h' l : next bcmp h = Ok (Some x, h') -> hrun h' l -> hrun h (x :: l).

Lemma next_none (h h' : @heap bytes mval) : next bcmp h = Ok (None, h') -> h = [] /\ h' = [].
Proof.
  destruct h as [|top rest]; simpl.
  - intros H. inversion H. split; reflexivity.
  - destruct (fill_next (ectx top) (erest top)); discriminate.
Qed.

Lemma drain_hrun fuel : forall h outs, drain_heap bcmp fuel h = Ok outs -> hrun h outs.
Proof.
  induction fuel as [|f IH]; intros h outs H; simpl in H; [discriminate|].
  destruct (next bcmp h) as [[[x|] h']|e] eqn:En; try discriminate.
  - destruct (drain_heap bcmp f h') as [l|e] eqn:Ed; try discriminate.
    inversion H; subst outs. eapply hrun_cons; [exact En|]. apply IH, Ed.
  - inversion H; subst outs. apply next_none in En. destruct En as [-> _]. constructor.
Qed.

Fixpoint feed {St} (w : sink St) (s : St) (kvs : list (bytes * mval)) : St * res unit :=
  match kvs with
  | [] => (s, Ok tt)
  | (k, v) :: r => match w s k v with
                   | (s', Ok _) => feed w s' r
                   | (s', Err e) => (s', Err e)
                   end
  end.

Lemma merge_drain_hrun {St} (w : sink St) h outs : hrun h outs ->
  forall fuel s, (length outs < fuel)%nat -> merge_drain fuel w h s = feed w s (map fst outs).
Proof.
  induction 1 as [|h x h' l Hn Hr IH]; intros fuel s Hf.
  - destruct fuel as [|f]; [lia|]. reflexivity.
  - destruct fuel as [|f]; [simpl in Hf; lia|]. simpl in Hf. simpl. rewrite Hn.
    destruct x as [[k v] c]. simpl. destruct (w s k v) as [s' [u|e]]; [|reflexivity].
    apply IH. lia.
Qed.

Definition pkey (p : option bytes) : bytes := match p with Some k => k | None => [] end.

Definition accum (reduce : reduce_fn) (prev : option bytes) (vals : list mval) (ctxs : list N)
           (x : hout) : option (bytes * bytes) * list mval * list N :=
  let boundary := match prev with Some p => negb (beqb (okey x) p) | None => false end in
  (if boundary then reduce (pkey prev) vals ctxs else None,
   if boundary then [oval x] else vals ++ [oval x],
   if boundary then [octx x] else ctxs ++ [octx x]).

Definition flush (reduce : reduce_fn) (prev : option bytes) (vals : list mval) (ctxs : list N)
  : option (bytes * bytes) :=
  match vals with [] => None | _ => reduce (pkey prev) vals ctxs end.

Definition emit (o : option (bytes * bytes)) : list (bytes * bytes) :=
  match o with Some kv => [kv] | None => [] end.

Fixpoint group (reduce : reduce_fn) (prev : option bytes) (vals : list mval) (ctxs : list N)
         (outs : list hout) : list (bytes * bytes) :=
  match outs with
  | [] => emit (flush reduce prev vals ctxs)
  | x :: r =>
      let '(em, vals', ctxs') := accum reduce prev vals ctxs x in
      emit em ++ group reduce (Some (okey x)) vals' ctxs' r
  end.

Lemma mci_next_eq fuel reduce m :
  mci_next (S fuel) reduce m
  = match next bcmp (m_heap m) with
    | Err e => Err e
    | Ok (None, h') =>
        match flush reduce (m_prev m) (m_vals m) (m_ctxs m) with
        | Some kv => Ok (Some kv, mkMci h' (m_prev m) [] (m_ctxs m))
        | None => Ok (None, m)
        end
    | Ok (Some x, h') =>
        let '(em, vals', ctxs') := accum reduce (m_prev m) (m_vals m) (m_ctxs m) x in
        let m' := mkMci h' (Some (okey x)) vals' ctxs' in
        match em with Some kv => Ok (Some kv, m') | None => mci_next fuel reduce m' end
    end.
Proof.
  cbn [mci_next]. destruct (next bcmp (m_heap m)) as [[[[[k v] c]|] h']|e]; try reflexivity.
  unfold flush. destruct (m_vals m); reflexivity.
Qed.

(* the heap outputs left over are fewer, except for the final flush of the buffers *)
Lemma mci_next_hrun reduce h outs : hrun h outs ->
  forall fuel prev vals ctxs, (length outs < fuel)%nat ->
  match mci_next fuel reduce (mkMci h prev vals ctxs) with
  | Ok (None, _) => group reduce prev vals ctxs outs = []
  | Ok (Some kv, m') =>
      exists outs', hrun (m_heap m') outs'
        /\ group reduce prev vals ctxs outs
           = kv :: group reduce (m_prev m') (m_vals m') (m_ctxs m') outs'
        /\ ((length outs' < length outs)%nat \/ (m_heap m' = [] /\ m_vals m' = [] /\ outs' = []))
  | Err _ => False
  end.
Proof.
  induction 1 as [|h x h' l Hn Hr IH]; intros fuel prev vals ctxs Hf;
    (destruct fuel as [|f]; [simpl in Hf; lia|]); rewrite mci_next_eq; cbn [m_heap m_prev m_vals m_ctxs group].
  - cbn [next]. destruct (flush reduce prev vals ctxs); [|reflexivity].
    exists []. split; [constructor|]. split; [reflexivity|]. right. repeat split.
  - rewrite Hn. destruct (accum reduce prev vals ctxs x) as [[[kv|] vals'] ctxs']; cbn [emit app].
    + exists l. split; [exact Hr|]. split; [reflexivity|]. left. simpl. lia.
    + specialize (IH f (Some (okey x)) vals' ctxs'). simpl in Hf.
      destruct (mci_next f reduce _) as [[[kv|] m']|e]; try (apply IH; lia).
      destruct IH as (outs' & Hr' & Hg & Hl); [lia|]. exists outs'. split; [exact Hr'|].
      split; [exact Hg|]. simpl. destruct Hl as [Hl|Hl]; [left; lia|right; exact Hl].
Qed.

(* the two calls beyond the number of heap outputs are the final flush of the buffers and the one
   that reports Done; S (S total_len) in the model is this bound *)
Lemma mci_drain_hrun reduce fuel : forall h outs prev vals ctxs,
  hrun h outs -> (length outs + 2 <= fuel)%nat ->
  mci_drain fuel reduce (mkMci h prev vals ctxs) = (group reduce prev vals ctxs outs, None).
Proof.
  induction fuel as [|f IH]; intros h outs prev vals ctxs Hr Hf; [lia|].
  pose proof (mci_next_hrun reduce h outs Hr (S f) prev vals ctxs) as Hm. cbn [mci_drain].
  destruct (mci_next (S f) reduce (mkMci h prev vals ctxs)) as [[[kv|] [h' p' v' c']]|e].
  - destruct Hm as (outs' & Hr' & -> & Hl); [lia|]. cbn [m_heap m_prev m_vals m_ctxs] in *.
    destruct Hl as [Hl|(-> & -> & ->)].
    + rewrite (IH h' outs' p' v' c' Hr') by lia. reflexivity.
    + destruct f as [|f']; [simpl in Hf; lia|reflexivity].
  - rewrite Hm by lia. reflexivity.
  - destruct Hm. lia.
Qed.

Lemma merge_compact_drain_feed {St} reduce (w : sink St) fuel : forall m s,
  snd (mci_drain fuel reduce m) = None ->
  merge_compact_drain fuel reduce w m s = feed w s (map (fun kv => (fst kv, Some (snd kv))) (fst (mci_drain fuel reduce m))).
Proof.
  induction fuel as [|f IH]; intros m s Hn; [simpl in Hn; discriminate|].
  cbn [mci_drain merge_compact_drain] in *.
  destruct (mci_next (S f) reduce m) as [[[[k v]|] m']|e]; cbn [fst snd] in *;
    [|reflexivity|discriminate].
  destruct (mci_drain f reduce m') as [l e] eqn:Ed. cbn [fst snd] in *. subst e.
  cbn [map feed fst snd]. destruct (w s k (Some v)) as [s' [u|e]]; [|reflexivity].
  rewrite IH; rewrite Ed; reflexivity.
Qed.

Fixpoint number_from {A} (i : N) (l : list A) : list (N * A) :=
  match l with [] => [] | x :: r => (i, x) :: number_from (i + 1) r end.

Lemma number_is_from {A} (l : list A) : number l = number_from 0 l.
Proof.
  unfold number. generalize 0. induction l as [|x r IH]; intros i; simpl; [reflexivity|].
  rewrite IH. reflexivity.
Qed.

Lemma number_from_ge {A} (l : list A) : forall i c x, In (c, x) (number_from i l) -> i <= c.
Proof.
  induction l as [|y r IH]; intros i c x Hin; simpl in Hin; [contradiction|].
  destruct Hin as [Heq|Hin]; [inversion Heq; lia|]. apply IH in Hin. lia.
Qed.

Lemma number_from_nodup {A} (l : list A) : forall i, NoDup (map fst (number_from i l)).
Proof.
  induction l as [|y r IH]; intros i; simpl; constructor; [|apply IH].
  intros Hin. apply in_map_iff in Hin. destruct Hin as ([c x] & Hc & Hin). simpl in Hc. subst c.
  apply number_from_ge in Hin. lia.
Qed.

Lemma number_from_map {A B} (f : A -> B) (l : list A) : forall i,
  number_from i (map f l) = map (fun p => (fst p, f (snd p))) (number_from i l).
Proof. induction l as [|y r IH]; intros i; simpl; [reflexivity|]. rewrite IH. reflexivity. Qed.

Lemma number_from_in {A} (l : list A) : forall i c x, In (c, x) (number_from i l) -> In x l.
Proof.
  induction l as [|y r IH]; intros i c x Hin; simpl in Hin; [contradiction|].
  destruct Hin as [Heq|Hin]; [inversion Heq; left; reflexivity|right; eapply IH, Hin].
Qed.

Lemma number_from_total (tables : list table) : forall i,
  total_len (number_from i (map as_stream tables)) = length (concat tables).
Proof.
  induction tables as [|t ts IH]; intros i; simpl; [reflexivity|].
  rewrite IH, app_length. unfold as_stream. rewrite map_length. reflexivity.
Qed.

(* The heap tags every entry with the number of its table, and a larger number is a newer table.
   So the value of the newest table that holds k is the value carrying the largest number among the
   entries of key k: [cm < c] below, and run_value. *)
Lemma newest_none k (tables : list table) : forall i,
  (forall c t, In (c, t) (number_from i tables) -> t_get k t = None) ->
  newest_value k (rev tables) = None.
Proof.
  induction tables as [|t ts IH]; intros i H; simpl; [reflexivity|].
  rewrite newest_value_app. rewrite (IH (i + 1)).
  - simpl. rewrite (H i t); [reflexivity|left; reflexivity].
  - intros c t' Hin. apply (H c t'). right. exact Hin.
Qed.

Lemma newest_some k v (tables : list table) : forall i cm t,
  In (cm, t) (number_from i tables) -> t_get k t = Some v ->
  (forall c t', In (c, t') (number_from i tables) -> cm < c -> t_get k t' = None) ->
  newest_value k (rev tables) = Some v.
Proof.
  induction tables as [|t0 ts IH]; intros i cm t Hin Hg Hn; simpl in Hin; [contradiction|].
  simpl. rewrite newest_value_app. destruct Hin as [Heq|Hin].
  - inversion Heq; subst cm t0. rewrite (newest_none k ts (i + 1)).
    + simpl. rewrite Hg. reflexivity.
    + intros c t' Hin. apply (Hn c t'); [right; exact Hin|]. apply number_from_ge in Hin. lia.
  - rewrite (IH (i + 1) cm t Hin Hg); [reflexivity|].
    intros c t' Hin' Hlt. apply (Hn c t'); [right; exact Hin'|exact Hlt].
Qed.

Definition ntables (tables : list table) : list (N * table) := number_from 0 tables.

Lemma ntables_sorted tables c t : Forall tsorted tables -> In (c, t) (ntables tables) -> tsorted t.
Proof. intros Hs Hin. apply (proj1 (Forall_forall _ _) Hs). eapply number_from_in, Hin. Qed.

Lemma oks_as_stream (t : table) : oks (as_stream t) = t.
Proof. induction t as [|kv r IH]; simpl; [reflexivity|]. rewrite IH. reflexivity. Qed.

Lemma all_ok_as_stream (t : table) : all_ok (as_stream t).
Proof.
  unfold all_ok, as_stream. apply Forall_forall. intros x Hx. apply in_map_iff in Hx.
  destruct Hx as (kv & <- & _). exists kv. reflexivity.
Qed.

Lemma tsorted_nondesc (t : table) : tsorted t -> nondesc bcmp t.
Proof.
  induction 1 as [|x l Hs IH Hf]; constructor; [exact IH|].
  eapply Forall_impl; [|exact Hf]. intros y Hy. simpl in Hy. rewrite Hy. discriminate.
Qed.

(* what heap_merge_sorted says of the outputs, in terms of the numbered tables *)
Record outs_spec (tables : list table) (outs : list hout) : Prop := {
  os_sorted : out_nondesc bcmp outs;
  os_of_ctx : forall c t, In (c, t) (ntables tables) -> of_ctx c outs = t;
  os_sound : forall x, In x outs -> exists t, In (octx x, t) (ntables tables) /\ In (okey x, oval x) t;
  os_complete : forall c t k v, In (c, t) (ntables tables) -> In (k, v) t -> In (k, v, c) outs;
  os_length : length outs = total_len (number (map as_stream tables))
}.

Lemma heap_outputs (tables : list table) :
  Forall tsorted tables ->
  exists h outs,
    init bcmp (number (map as_stream tables)) = Ok h
    /\ hrun h outs /\ outs_spec tables outs.
Proof.
  intros Hs. set (its := number (map as_stream tables)).
  assert (Hits : its = map (fun p => (fst p, as_stream (snd p))) (ntables tables))
    by (unfold its, ntables; rewrite number_is_from; apply number_from_map).
  destruct (heap_merge_sorted bcmp bcmp_laws its) as (outs & Hm & Hsort & Hof & Htag & Hlen).
  { unfold its. rewrite number_is_from. apply number_from_nodup. }
  { apply Forall_forall. intros [c s] Hin. rewrite Hits in Hin. apply in_map_iff in Hin.
    destruct Hin as ([c' t] & Heq & Hin). simpl in Heq. inversion Heq; subst c s. simpl.
    split; [apply all_ok_as_stream|]. rewrite oks_as_stream.
    eapply tsorted_nondesc, ntables_sorted; eassumption. }
  unfold merge_all in Hm. destruct (init bcmp its) as [h|e] eqn:Ei; [|discriminate].
  exists h, outs. split; [reflexivity|]. split; [eapply drain_hrun, Hm|].
  assert (Hof' : forall c t, In (c, t) (ntables tables) -> of_ctx c outs = t).
  { intros c t Hin. rewrite <- (oks_as_stream t). apply Hof. rewrite Hits.
    apply in_map_iff. exists (c, t). split; [reflexivity|exact Hin]. }
  constructor.
  - exact Hsort.
  - exact Hof'.
  - intros x Hx. rewrite Forall_forall in Htag. pose proof (Htag x Hx) as Hc.
    rewrite Hits, map_map in Hc. simpl in Hc. apply in_map_iff in Hc.
    destruct Hc as ([c t] & Hc & Hin). simpl in Hc. exists t. unfold octx. rewrite <- Hc.
    split; [exact Hin|]. rewrite <- (Hof' c t Hin). rewrite Hc.
    change (okey x, oval x) with (fst (fst x), snd (fst x)). rewrite <- surjective_pairing.
    apply in_of_ctx, Hx.
  - intros c t k v Hin Hkv. apply of_ctx_in. rewrite (Hof' c t Hin). exact Hkv.
  - exact Hlen.
Qed.

Lemma heap_consumers (tables : list table) :
  Forall tsorted tables ->
  exists outs,
    outs_spec tables outs
    /\ (forall reduce, scan_merged reduce (map as_stream tables) = (group reduce None [] [] outs, None))
    /\ (forall St (w : sink St) s, merge w (map as_stream tables) s = feed w s (map fst outs)).
Proof.
  intros Hs. destruct (heap_outputs tables Hs) as (h & outs & Hi & Hr & Hspec).
  exists outs. split; [exact Hspec|]. split.
  - intros reduce. unfold scan_merged, mci_init. rewrite Hi.
    apply mci_drain_hrun; [exact Hr|]. rewrite (os_length _ _ Hspec). lia.
  - intros St w s. unfold merge. rewrite Hi. apply merge_drain_hrun; [exact Hr|].
    rewrite (os_length _ _ Hspec). lia.
Qed.

Lemma group_ext r1 r2 : (forall k vs cs, r1 k vs cs = r2 k vs cs) ->
  forall outs prev vals ctxs, group r1 prev vals ctxs outs = group r2 prev vals ctxs outs.
Proof.
  intros He. induction outs as [|x r IH]; intros prev vals ctxs; cbn [group].
  - unfold flush. rewrite He. reflexivity.
  - unfold accum. rewrite He. destruct (match prev with Some p => _ | None => _ end);
      rewrite IH; reflexivity.
Qed.

(* the scan either keeps the incumbent, all contexts being at most [best], or settles on the first
   of the entries with the largest context *)
Lemma max_ctx_index_spec (R : list hout) : forall i best besti,
  (max_ctx_index (map octx R) i best besti = besti /\ forall y, In y R -> octx y <= best)
  \/ (exists R1 x R2, R = R1 ++ x :: R2
       /\ max_ctx_index (map octx R) i best besti = (i + length R1)%nat
       /\ best < octx x /\ forall y, In y R -> octx y <= octx x).
Proof.
  induction R as [|y R IH]; intros i best besti; cbn [map max_ctx_index].
  - left. split; [reflexivity|]. intros y [].
  - destruct (N.ltb_spec best (octx y)) as [E|E].
    + right. destruct (IH (S i) (octx y) i) as [[Hr Hle]|(R1 & x & R2 & HR & Hr & Hlt & Hle)];
        clear IH.
      * exists [], y, R. rewrite Hr, Nat.add_0_r. repeat split; [exact E|].
        intros z [<-|Hz]; [apply N.le_refl|apply Hle, Hz].
      * exists (y :: R1), x, R2. rewrite Hr. cbn [length app]. rewrite Nat.add_succ_r, <- HR.
        repeat split; [apply (N.lt_trans _ _ _ E Hlt)|].
        intros z [<-|Hz]; [apply N.lt_le_incl, Hlt|apply Hle, Hz].
    + destruct (IH (S i) best besti) as [[Hr Hle]|(R1 & x & R2 & HR & Hr & Hlt & Hle)]; clear IH.
      * left. split; [exact Hr|]. intros z [<-|Hz]; [exact E|apply Hle, Hz].
      * right. exists (y :: R1), x, R2. rewrite Hr. cbn [length app]. rewrite Nat.add_succ_r, <- HR.
        repeat split; [exact Hlt|].
        intros z [<-|Hz]; [apply (N.le_trans _ _ _ E), N.lt_le_incl, Hlt|apply Hle, Hz].
Qed.

Lemma latest_in (R : list hout) : R <> [] ->
  exists x, In x R /\ latest_value (map oval R) (map octx R) = oval x
            /\ forall y, In y R -> octx y <= octx x.
Proof.
  intros Hne. unfold latest_value.
  destruct (max_ctx_index_spec R 0 0 0) as [[-> Hle]|(R1 & x & R2 & -> & -> & _ & Hle)].
  - destruct R as [|x0 R']; [congruence|]. exists x0. split; [left; reflexivity|].
    split; [reflexivity|]. intros y Hy. pose proof (Hle y Hy). lia.
  - exists x. split; [apply in_elt|]. split; [|exact Hle].
    rewrite map_app, <- (map_length oval R1). apply nth_middle.
Qed.

Definition keyis (k : bytes) (x : hout) : bool := beqb k (okey x).

Lemma run_value (tables : list table) outs k :
  Forall tsorted tables -> outs_spec tables outs ->
  newest_value k (rev tables)
  = match filter (keyis k) outs with
    | [] => None
    | R => Some (latest_value (map oval R) (map octx R))
    end.
Proof.
  intros Hs Hspec.
  assert (Hmem : forall c t v, In (c, t) (ntables tables) -> t_get k t = Some v ->
                               In (k, v, c) (filter (keyis k) outs)).
  { intros c t v Hin Hg. apply filter_In. split; [|apply beqb_refl].
    eapply (os_complete _ _ Hspec); [exact Hin|].
    apply t_get_in, Hg. }
  destruct (filter (keyis k) outs) as [|x0 R'] eqn:ER.
  - apply (newest_none k tables 0). intros c t Hin.
    destruct (t_get k t) as [v|] eqn:Hg; [|reflexivity].
    destruct (Hmem c t v Hin Hg).
  - cbv beta iota zeta. destruct (latest_in (x0 :: R')) as (x & Hx & -> & Hmax); [discriminate|].
    rewrite <- ER in Hx. apply filter_In in Hx. destruct Hx as [Hxo Hk].
    apply beqb_true in Hk.
    destruct (os_sound _ _ Hspec x Hxo) as (t & Hin & Hkv). rewrite <- Hk in Hkv.
    apply (newest_some k (oval x) tables 0 (octx x) t Hin).
    + apply (t_get_in_iff k _ t (ntables_sorted _ _ _ Hs Hin)), Hkv.
    + intros c t' Hin' Hlt. destruct (t_get k t') as [v|] eqn:Hg; [|reflexivity].
      pose proof (Hmax _ (Hmem c t' v Hin' Hg)) as Hle. unfold octx in Hle at 1. simpl in Hle. lia.
Qed.

(* Both reductions of the model are a function [f] of the newest value of the run (identity, or
   dropping the empty value), so everything below is proved once, for reduce_f f: [runval f R] is what
   a run R of one key reduces to, [live_f f] what is left of a table. *)
Definition reduce_f (f : mval -> option bytes) : reduce_fn :=
  fun k vals ctxs => match f (latest_value vals ctxs) with Some v => Some (k, v) | None => None end.

Definition runval (f : mval -> option bytes) (R : list hout) : option bytes :=
  match R with [] => None | _ => f (latest_value (map oval R) (map octx R)) end.

Lemma filter_keyis_above p (l : list hout) :
  (forall y, In y l -> bcmp p (okey y) = Lt) -> filter (keyis p) l = [].
Proof. intros H. apply filter_all_false, Forall_forall. intros y Hy. apply beqb_lt, H, Hy. Qed.

Lemma out_nondesc_inv (x : hout) r : out_nondesc bcmp (x :: r) ->
  out_nondesc bcmp r /\ forall y, In y r -> bcmp (okey x) (okey y) <> Gt.
Proof.
  intros H. apply StronglySorted_inv in H. destruct H as [H1 H2]. split; [exact H1|].
  rewrite Forall_forall in H2. exact H2.
Qed.

Lemma lt_of_le_ne p k : bcmp p k <> Gt -> beqb k p = false -> bcmp p k = Lt.
Proof.
  intros Hle Hne. destruct (bcmp p k) eqn:E; [|reflexivity|congruence].
  apply bcmp_eq in E. subst k. rewrite beqb_refl in Hne. discriminate.
Qed.

Lemma key_below_above {A} p k (l : list (bytes * A)) :
  bcmp p k = Lt -> key_below bcmp k l -> above p l.
Proof.
  intros Hlt H. eapply Forall_impl; [|exact H].
  intros x Hx. simpl in Hx. eapply (cmp_lt_le_trans bcmp bcmp_laws); eassumption.
Qed.

Lemma above_key_below {A} p (l : list (bytes * A)) : above p l -> key_below bcmp p l.
Proof. apply Forall_impl. intros x Hx. rewrite Hx. discriminate. Qed.

Lemma runval_head f k x r :
  (if beqb k (okey x) then runval f ([x] ++ filter (keyis (okey x)) r)
   else runval f (filter (keyis k) r))
  = runval f (filter (keyis k) (x :: r)).
Proof.
  cbn [filter]. unfold keyis at 3. destruct (beqb k (okey x)) eqn:E; [|reflexivity].
  apply beqb_true in E. subst k. reflexivity.
Qed.

Lemma reduce_run f p run : run <> [] ->
  reduce_f f p (map oval run) (map octx run) = option_map (pair p) (runval f run).
Proof. intros Hne. unfold reduce_f, runval. destruct run; [congruence|]. destruct (f _); reflexivity. Qed.

Lemma flush_run f p run : run <> [] ->
  flush (reduce_f f) (Some p) (map oval run) (map octx run) = option_map (pair p) (runval f run).
Proof. intros Hne. rewrite <- (reduce_run f p run Hne). destruct run; [congruence|reflexivity]. Qed.

Lemma emit_front p (o : option bytes) (g : list (bytes * bytes)) :
  ascending bcmp g -> above p g ->
  let g' := emit (option_map (pair p) o) ++ g in
  ascending bcmp g' /\ key_below bcmp p g' /\
  forall k', assoc bcmp k' g' = if beqb k' p then o else assoc bcmp k' g.
Proof.
  intros Hs Hab. cbv zeta. destruct o as [v0|]; cbn [option_map emit app].
  - split; [constructor; assumption|]. split.
    + constructor; [simpl; rewrite bcmp_refl; discriminate|apply above_key_below, Hab].
    + intros k'. apply assoc_beqb.
  - split; [exact Hs|]. split; [apply above_key_below, Hab|].
    intros k'. destruct (beqb k' p) eqn:E; [|reflexivity].
    apply beqb_true in E. subst k'. apply assoc_all_gt, Hab.
Qed.

(* [run] is the run of key [p] read so far *)
Lemma group_spec f outs : forall run p,
  run <> [] -> (forall x, In x outs -> bcmp p (okey x) <> Gt) -> out_nondesc bcmp outs ->
  let g := group (reduce_f f) (Some p) (map oval run) (map octx run) outs in
  ascending bcmp g /\ key_below bcmp p g /\
  forall k', assoc bcmp k' g = if beqb k' p then runval f (run ++ filter (keyis p) outs)
                               else runval f (filter (keyis k') outs).
Proof.
  induction outs as [|x r IH]; intros run p Hne Hge Hs; cbv zeta; cbn [group filter].
  - rewrite app_nil_r, (flush_run f p run Hne), <- (app_nil_r (emit _)).
    apply (emit_front p (runval f run) []); constructor.
  - apply out_nondesc_inv in Hs. destruct Hs as [Hs Hk].
    pose proof (Hge _ (or_introl eq_refl)) as Hpk.
    unfold accum, keyis at 1. cbn [pkey]. rewrite (beqb_sym (okey x) p).
    destruct (beqb p (okey x)) eqn:Ekp; cbn [negb emit app].
    + apply beqb_true in Ekp.
      replace (map oval run ++ [oval x]) with (map oval (run ++ [x])) by apply map_app.
      replace (map octx run ++ [octx x]) with (map octx (run ++ [x])) by apply map_app.
      rewrite <- Ekp. destruct (IH (run ++ [x]) p) as (IHs & IHa & IHg);
        [intros Habs; apply app_eq_nil in Habs; destruct Habs; discriminate
        |intros y Hy; apply Hge; right; exact Hy|exact Hs|].
      split; [exact IHs|]. split; [exact IHa|]. intros k'. rewrite IHg, <- app_assoc.
      change (keyis k' x) with (beqb k' (okey x)). rewrite <- Ekp.
      destruct (beqb k' p); reflexivity.
    + assert (Hlt : bcmp p (okey x) = Lt)
        by (apply lt_of_le_ne; [exact Hpk|rewrite beqb_sym; exact Ekp]).
      destruct (IH [x] (okey x)) as (IHs & IHa & IHg); [discriminate|exact Hk|exact Hs|].
      cbn [map] in IHs, IHa, IHg.
      rewrite filter_keyis_above, app_nil_r, (reduce_run f p run Hne).
      2:{ intros y Hy. eapply (cmp_lt_le_trans bcmp bcmp_laws); [exact Hlt|apply Hk, Hy]. }
      destruct (emit_front p (runval f run) _ IHs (key_below_above _ _ _ Hlt IHa)) as (H1 & H2 & H3).
      split; [exact H1|]. split; [exact H2|]. intros k'. rewrite H3, IHg.
      destruct (beqb k' p); [reflexivity|apply runval_head].
Qed.

Lemma group0_spec f outs : out_nondesc bcmp outs ->
  ascending bcmp (group (reduce_f f) None [] [] outs)
  /\ forall k, assoc bcmp k (group (reduce_f f) None [] [] outs) = runval f (filter (keyis k) outs).
Proof.
  intros Hs. destruct outs as [|x r]; [split; [constructor|reflexivity]|].
  change (group (reduce_f f) None [] [] (x :: r))
    with (group (reduce_f f) (Some (okey x)) (map oval [x]) (map octx [x]) r).
  apply out_nondesc_inv in Hs. destruct Hs as [Hs Hk].
  destruct (group_spec f r [x] (okey x)) as (Hg & _ & Hget); try assumption; [discriminate|].
  split; [exact Hg|]. intros k. rewrite Hget. apply runval_head.
Qed.

Definition live_f (f : mval -> option bytes) (l : table) : list (bytes * bytes) :=
  flat_map (fun kv => match f (snd kv) with Some v => [(fst kv, v)] | None => [] end) l.

Lemma live_f_above f a (l : table) : above a l -> above a (live_f f l).
Proof.
  induction l as [|[k mv] r IH]; intros Ha; simpl; [constructor|].
  pose proof (Forall_inv Ha) as H1. apply Forall_inv_tail in Ha.
  destruct (f mv); simpl; [constructor; [exact H1|]|]; apply IH, Ha.
Qed.

Lemma live_f_sorted f (l : table) : tsorted l -> ascending bcmp (live_f f l).
Proof.
  induction l as [|[k mv] r IH]; intros Hs; simpl; [constructor|].
  apply StronglySorted_inv in Hs as [Hs Ha].
  destruct (f mv) as [v|]; simpl; [|apply IH, Hs].
  constructor; [apply IH, Hs|apply live_f_above, Ha].
Qed.

Lemma live_f_get f k (l : table) : tsorted l ->
  assoc bcmp k (live_f f l) = match t_get k l with Some mv => f mv | None => None end.
Proof.
  induction l as [|[k1 mv] r IH]; intros Hs; cbn [live_f flat_map t_get fst snd]; [reflexivity|].
  apply StronglySorted_inv in Hs as [Hs Ha]. simpl in Ha.
  fold (live_f f r). specialize (IH Hs). destruct (beqb k k1) eqn:E.
  - apply beqb_true in E. subst k1. destruct (f mv) as [v|]; cbn [app].
    + rewrite assoc_beqb, beqb_refl. reflexivity.
    + apply assoc_all_gt, live_f_above, Ha.
  - destruct (f mv) as [v|]; cbn [app]; [rewrite assoc_beqb, E|]; exact IH.
Qed.

Lemma scan_merged_f f (tables : list table) :
  Forall tsorted tables ->
  scan_merged (reduce_f f) (map as_stream tables) = (live_f f (union_latest tables), None).
Proof.
  intros Hs. destruct (heap_consumers tables Hs) as (outs & Hspec & Hscan & _).
  rewrite Hscan. f_equal.
  pose proof (union_latest_sorted tables) as Hu.
  destruct (group0_spec f outs (os_sorted _ _ Hspec)) as [Hg Hget].
  apply (assoc_ext bcmp bcmp_laws); [exact Hg|apply live_f_sorted, Hu|].
  intros k. rewrite Hget, (live_f_get f k _ Hu), (union_latest_get tables k Hs).
  rewrite (run_value tables outs k Hs Hspec). destruct (filter (keyis k) outs); reflexivity.
Qed.

Lemma scan_merged_ext r1 r2 (tables : list table) :
  Forall tsorted tables -> (forall k vs cs, r1 k vs cs = r2 k vs cs) ->
  scan_merged r1 (map as_stream tables) = scan_merged r2 (map as_stream tables).
Proof.
  intros Hs He. destruct (heap_consumers tables Hs) as (outs & _ & Hscan & _).
  rewrite !Hscan. f_equal. apply group_ext, He.
Qed.

(* C08: the compacting merge with "latest wins" = the live part of the union: ascending, each key
   once, newest value, tombstoned keys omitted; no error *)
Theorem merge_compact_latest_wins (tables : list table) :
  Forall tsorted tables ->
  scan_merged reduce_latest_wins (map as_stream tables) = (live (union_latest tables), None).
Proof.
  intros Hs. change reduce_latest_wins with (reduce_f (fun mv => mv)).
  rewrite (scan_merged_f _ tables Hs). reflexivity.
Qed.

Definition drop_empty (mv : mval) : option bytes :=
  match mv with Some [] => None | Some v => Some v | None => None end.

Theorem merge_compact_skip_tombstones (tables : list table) :
  Forall tsorted tables ->
  scan_merged reduce_latest_wins_skip_tombstones (map as_stream tables) = (live_nonempty (union_latest tables), None).
Proof.
  intros Hs. rewrite (scan_merged_ext _ (reduce_f drop_empty) tables Hs).
  - rewrite (scan_merged_f _ tables Hs). f_equal. unfold live_f, live_nonempty.
    apply flat_map_ext. intros [k [[|b v]|]]; reflexivity.
  - intros k vs cs. unfold reduce_latest_wins_skip_tombstones, reduce_f, drop_empty.
    destruct (latest_value vs cs) as [[|b v]|]; reflexivity.
Qed.

Lemma newest_value_in k v (ts : list table) :
  newest_value k ts = Some v -> exists t, In t ts /\ In (k, v) t.
Proof.
  induction ts as [|t r IH]; simpl; [discriminate|]. destruct (t_get k t) as [v'|] eqn:Hg.
  - intros [= ->]. exists t. split; [left; reflexivity|apply t_get_in, Hg].
  - intros H. destruct (IH H) as (t' & Ht' & Hin). exists t'. split; [right; exact Ht'|exact Hin].
Qed.

Lemma live_in k v (l : table) : In (k, v) (live l) -> In (k, Some v) l.
Proof.
  unfold live. intros H. apply in_flat_map in H. destruct H as ([k' [v'|]] & Hin & H); simpl in H.
  - destruct H as [H|[]]. inversion H; subst. exact Hin.
  - contradiction.
Qed.

Corollary no_cross_attribution (tables : list table) k v :
  Forall tsorted tables ->
  In (k, v) (fst (scan_merged reduce_latest_wins (map as_stream tables))) ->
  exists t, In t tables /\ In (k, Some v) t.
Proof.
  intros Hs. rewrite (merge_compact_latest_wins tables Hs). simpl. intros H.
  apply live_in, (t_get_in_iff _ _ _ (union_latest_sorted tables)) in H.
  rewrite (union_latest_get tables k Hs) in H.
  apply newest_value_in in H.
  destruct H as (t & Ht & Hin). exists t. split; [apply in_rev, Ht|exact Hin].
Qed.

(* C11: MergeCompact is exactly "feed the merged sequence to the writer and stop at its first
   error": a failed write is reported, and success means the writer received the complete output *)
Theorem merge_compact_is_feed {St} (reduce : reduce_fn) (w : sink St) (tables : list table) (s : St) :
  Forall tsorted tables ->
  merge_compact reduce w (map as_stream tables) s
  = feed w s (map (fun kv => (fst kv, Some (snd kv))) (fst (scan_merged reduce (map as_stream tables)))).
Proof.
  intros Hs. destruct (heap_consumers tables Hs) as (outs & _ & Hscan & _).
  specialize (Hscan reduce). unfold merge_compact. unfold scan_merged in *.
  destruct (mci_init (map as_stream tables)) as [m|e]; [|discriminate].
  apply merge_compact_drain_feed. rewrite Hscan. reflexivity.
Qed.

Definition disjoint_keys (tables : list table) : Prop :=
  NoDup (flat_map (fun t => map fst t) tables).

Lemma disjoint_same_ctx k (tables : list table) : forall i c1 t1 c2 t2,
  disjoint_keys tables ->
  In (c1, t1) (number_from i tables) -> In (c2, t2) (number_from i tables) ->
  In k (map fst t1) -> In k (map fst t2) -> c1 = c2.
Proof.
  unfold disjoint_keys.
  induction tables as [|t0 ts IH]; intros i c1 t1 c2 t2 Hd H1 H2 K1 K2; simpl in H1, H2; [contradiction|].
  simpl in Hd. apply NoDup_app_disjoint in Hd. destruct Hd as [Hd Hx].
  assert (Hin : forall c t, In (c, t) (number_from (i + 1) ts) -> In k (map fst t) ->
                            In k (flat_map (fun t => map fst t) ts)).
  { intros c t Hc Hk. apply in_flat_map. exists t. split; [eapply number_from_in, Hc|exact Hk]. }
  destruct H1 as [E1|H1]; destruct H2 as [E2|H2].
  - inversion E1; inversion E2; subst. reflexivity.
  - inversion E1; subst. exfalso. apply (Hx k K1). eapply Hin; eassumption.
  - inversion E2; subst. exfalso. apply (Hx k K2). eapply Hin; eassumption.
  - eapply (IH (i + 1)); eassumption.
Qed.

Lemma of_ctx_tail_sorted c (x : bytes * mval * N) r :
  ascending bcmp (of_ctx c (x :: r)) -> ascending bcmp (of_ctx c r).
Proof.
  intros H. destruct (N.eq_dec (snd x) c) as [E|E].
  - rewrite (of_ctx_cons_eq c x r E) in H. apply StronglySorted_inv in H. apply H.
  - rewrite (of_ctx_cons_ne c x r E) in H. exact H.
Qed.

Lemma outs_strict (outs : list (bytes * mval * N)) :
  out_nondesc bcmp outs ->
  (forall x, In x outs -> ascending bcmp (of_ctx (octx x) outs)) ->
  (forall x y, In x outs -> In y outs -> okey x = okey y -> octx x = octx y) ->
  ascending bcmp (map fst outs).
Proof.
  induction outs as [|x r IH]; intros Hs Hc Hd; simpl; [constructor|].
  apply out_nondesc_inv in Hs. destruct Hs as [Hs Hk].
  constructor.
  - apply IH; [exact Hs| |].
    + intros y Hy. eapply of_ctx_tail_sorted. apply Hc. right. exact Hy.
    + intros y z Hy Hz. apply Hd; right; assumption.
  - unfold above. apply Forall_forall. intros kv Hkv. apply in_map_iff in Hkv.
    destruct Hkv as (y & <- & Hy). pose proof (Hk y Hy) as Hle. unfold okey in Hle.
    destruct (bcmp (fst (fst x)) (fst (fst y))) eqn:E; [|reflexivity|congruence]. exfalso.
    apply bcmp_eq in E.
    assert (Hcc : octx x = octx y) by (apply Hd; [left; reflexivity|right; exact Hy|exact E]).
    pose proof (Hc x (or_introl eq_refl)) as Hsx.
    rewrite (of_ctx_cons_eq (octx x) x r eq_refl) in Hsx. apply StronglySorted_inv in Hsx.
    destruct Hsx as [_ Ha].
    assert (Hin : In (fst y) (of_ctx (octx x) r)) by (rewrite Hcc; apply in_of_ctx, Hy).
    apply (above_in _ _ _ Ha) in Hin. rewrite E, bcmp_refl in Hin. discriminate.
Qed.

Lemma run_single (outs : list hout) k : ascending bcmp (map fst outs) ->
  match filter (keyis k) outs with
  | [] => assoc bcmp k (map fst outs) = None
  | [x] => assoc bcmp k (map fst outs) = Some (oval x)
  | _ => False
  end.
Proof.
  induction outs as [|x r IH]; intros Hs; [reflexivity|].
  apply StronglySorted_inv in Hs as [Hs Ha]. specialize (IH Hs).
  cbn [map filter]. rewrite (surjective_pairing (fst x)), assoc_beqb.
  change (keyis k x) with (beqb k (fst (fst x))).
  destruct (beqb k (fst (fst x))) eqn:E; [|exact IH]. apply beqb_true in E. subst k.
  rewrite filter_keyis_above; [reflexivity|].
  intros y Hy. apply (above_in _ _ (fst y) Ha), in_map, Hy.
Qed.

Theorem merge_disjoint_union {St} (w : sink St) (tables : list table) (s : St) :
  Forall tsorted tables -> disjoint_keys tables ->
  merge w (map as_stream tables) s = feed w s (union_latest tables).
Proof.
  intros Hs Hd. destruct (heap_consumers tables Hs) as (outs & Hspec & _ & Hm).
  rewrite Hm. f_equal.
  assert (Hsame : forall x y, In x outs -> In y outs -> okey x = okey y -> octx x = octx y).
  { intros x y Hx Hy Hk.
    destruct (os_sound _ _ Hspec x Hx) as (tx & Hcx & Hkx).
    destruct (os_sound _ _ Hspec y Hy) as (ty & Hcy & Hky).
    apply (disjoint_same_ctx (okey x) tables 0 (octx x) tx (octx y) ty Hd Hcx Hcy).
    - apply (in_map fst) in Hkx. exact Hkx.
    - apply (in_map fst) in Hky. rewrite Hk. exact Hky. }
  assert (Hsorted : ascending bcmp (map fst outs)).
  { apply outs_strict; [apply (os_sorted _ _ Hspec)| |exact Hsame].
    intros x Hx. destruct (os_sound _ _ Hspec x Hx) as (t & Hc & _).
    rewrite (os_of_ctx _ _ Hspec _ _ Hc). eapply ntables_sorted; eassumption. }
  apply (assoc_ext bcmp bcmp_laws); [exact Hsorted|apply union_latest_sorted|].
  intros k. rewrite <- (t_get_assoc k (union_latest tables)), (union_latest_get tables k Hs).
  rewrite (run_value tables outs k Hs Hspec). pose proof (run_single outs k Hsorted) as Ha.
  destruct (filter (keyis k) outs) as [|x [|y R]]; [congruence| |destruct Ha].
  rewrite Ha. unfold latest_value. cbn [map max_ctx_index]. destruct (0 <? octx x); reflexivity.
Qed.

Lemma merge_drain_err {St} (w : sink St) fuel : forall h s,
  has_err h -> exists e, snd (merge_drain fuel w h s) = Err e.
Proof.
  induction fuel as [|f IH]; intros h s Hd; [exists OutOfFuel; reflexivity|]. simpl.
  destruct (next_err bcmp h Hd) as [[e ->]|([[k v] c] & h' & -> & Hd')]; [exists e; reflexivity|].
  destruct (w s k v) as [s' [u|e]]; [apply IH, Hd'|exists e; reflexivity].
Qed.

Lemma mci_next_err reduce fuel : forall m,
  has_err (m_heap m) ->
  (exists e, mci_next fuel reduce m = Err e)
  \/ (exists kv m', mci_next fuel reduce m = Ok (Some kv, m') /\ has_err (m_heap m')).
Proof.
  induction fuel as [|f IH]; intros m Hd; [left; exists OutOfFuel; reflexivity|].
  rewrite mci_next_eq.
  destruct (next_err bcmp _ Hd) as [[e ->]|(x & h' & -> & Hd')]; [left; exists e; reflexivity|].
  destruct (accum reduce (m_prev m) (m_vals m) (m_ctxs m) x) as [[[kv|] vals'] ctxs'].
  - right. eexists; eexists. split; [reflexivity|exact Hd'].
  - apply IH. exact Hd'.
Qed.

Lemma merge_compact_drain_err {St} reduce (w : sink St) fuel : forall m s,
  has_err (m_heap m) -> exists e, snd (merge_compact_drain fuel reduce w m s) = Err e.
Proof.
  induction fuel as [|f IH]; intros m s Hd; [exists OutOfFuel; reflexivity|].
  cbn [merge_compact_drain].
  destruct (mci_next_err reduce (S f) m Hd) as [[e He]|([k v] & m' & Hm & Hd')]; rewrite ?He, ?Hm.
  - exists e. reflexivity.
  - destruct (w s k (Some v)) as [s' [u|e]]; [|exists e; reflexivity]. apply IH, Hd'.
Qed.

Lemma number_from_has {A} (x : A) l : forall i, In x l -> exists c, In (c, x) (number_from i l).
Proof.
  induction l as [|y r IH]; intros i Hin; [contradiction|]. destruct Hin as [->|Hin].
  - exists i. left. reflexivity.
  - destruct (IH (i + 1) Hin) as [c Hc]. exists c. right. exact Hc.
Qed.

Theorem merge_reports_input_fault {St} (w : sink St) (inputs : list mstream) (s : St) :
  (exists i e, In i inputs /\ In (Err e) i) ->
  (exists e, snd (merge w inputs s) = Err e)
  /\ (forall reduce, exists e, snd (merge_compact reduce w inputs s) = Err e).
Proof.
  intros (i & e & Hi & He).
  assert (Hbad : exists c s e, In (c, s) (number inputs) /\ In (Err e) s).
  { rewrite number_is_from. destruct (number_from_has i inputs 0 Hi) as [c Hc].
    exists c, i, e. split; assumption. }
  unfold merge, merge_compact, mci_init.
  destruct (init_err bcmp (number inputs) Hbad) as [[e0 He0]|(hf & Hf & Hhf)].
  - rewrite He0. split; [|intros reduce]; exists e0; reflexivity.
  - rewrite Hf. split; [apply merge_drain_err, Hhf|]. intros reduce.
    apply merge_compact_drain_err, Hhf.
Qed.

(* non-vacuity: the empty key, a tombstone over a live value and vice versa, an empty table *)
Example merge_example :
  let t0 : table := [([], Some [1]); ([5], Some [50]); ([7], None)] in
  let t1 : table := [] in
  let t2 : table := [([5], None); ([7], Some [77]); ([9], Some [])] in
  scan_merged reduce_latest_wins (map as_stream [t0; t1; t2]) = ([([], [1]); ([7], [77]); ([9], [])], None)
  /\ scan_merged reduce_latest_wins_skip_tombstones (map as_stream [t0; t1; t2]) = ([([], [1]); ([7], [77])], None)
  /\ union_latest [t0; t1; t2] = [([], Some [1]); ([5], None); ([7], Some [77]); ([9], Some [])].
Proof. vm_compute. repeat split. Qed.

Print Assumptions union_latest_sorted.
Print Assumptions union_latest_get.
Print Assumptions merge_compact_latest_wins.
Print Assumptions merge_compact_skip_tombstones.
Print Assumptions no_cross_attribution.
Print Assumptions merge_compact_is_feed.
Print Assumptions merge_disjoint_union.
Print Assumptions merge_reports_input_fault.
Print Assumptions merge_example.
