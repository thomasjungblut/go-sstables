(* C15: whatever sequence of keys is offered and whichever calls fail at the data or index append,
   the closed table holds exactly the accepted pairs, strictly ascending, and its metadata is
   truthful. *)
From GoSST Require Import Base.Bytes Base.Order Base.Crc Base.ProtoWire.
From GoSST Require Import RecordIO.Format RecordIO.FormatFacts RecordIO.Writer RecordIO.WriteReadFacts.
From GoSST Require Import SST.TableWriter.
From Coq Require Import Lia Sorting.Sorted.
Local Open Scope N_scope.

Definition call := (tw_fault * bytes * option bytes)%type.

(* the key check of the specification (and, literally, of the code) *)
Definition too_small (last : option bytes) (k : bytes) : bool :=
  match last with Some l => match bcmp l k with Lt => false | _ => true end | None => false end.

(* the property's own rule: a key must be strictly greater than the last ACCEPTED key; a call with an
   injected append failure is never accepted *)
Fixpoint spec_run (calls : list call) (last : option bytes) : list (res unit) * list (bytes * option bytes) :=
  match calls with
  | [] => ([], [])
  | (f, k, v) :: rest =>
      let too_small := match last with Some l => match bcmp l k with Lt => false | _ => true end | None => false end in
      if too_small then let '(rs, acc) := spec_run rest last in (Err Rejected :: rs, acc)
      else match f with
           | NoFault => let '(rs, acc) := spec_run rest (Some k) in (Ok tt :: rs, (k, v) :: acc)
           | _ => let '(rs, acc) := spec_run rest last in (Err Other :: rs, acc)
           end
  end.

Definition accepted (calls : list call) : list (bytes * option bytes) := snd (spec_run calls None).

Lemma too_small_false last k :
  too_small last k = false -> match last with Some l => bcmp l k = Lt | None => True end.
Proof.
  unfold too_small. destruct last as [l|]; [|intros _; exact I].
  destruct (bcmp l k); intros H; try discriminate H; reflexivity.
Qed.

Lemma spec_run_cons f k v rest last :
  spec_run ((f, k, v) :: rest) last =
  if too_small last k then (Err Rejected :: fst (spec_run rest last), snd (spec_run rest last))
  else match f with
       | NoFault => (Ok tt :: fst (spec_run rest (Some k)), (k, v) :: snd (spec_run rest (Some k)))
       | _ => (Err Other :: fst (spec_run rest last), snd (spec_run rest last))
       end.
Proof.
  cbn [spec_run]. fold (too_small last k).
  destruct (too_small last k); [destruct (spec_run rest last); reflexivity|].
  destruct f; [destruct (spec_run rest (Some k))|destruct (spec_run rest last)|destruct (spec_run rest last)];
    reflexivity.
Qed.

Definition above (last : option bytes) (kv : bytes * option bytes) : Prop :=
  match last with Some l => bcmp l (fst kv) = Lt | None => True end.

Lemma spec_run_sorted calls : forall last,
  StronglySorted (fun a b => bcmp (fst a) (fst b) = Lt) (snd (spec_run calls last))
  /\ Forall (above last) (snd (spec_run calls last)).
Proof.
  induction calls as [|[[f k] v] rest IH]; intros last.
  - cbn. split; constructor.
  - rewrite spec_run_cons.
    destruct (too_small last k) eqn:Ets; [apply IH|].
    destruct f; cbn [snd]; try apply IH.
    destruct (IH (Some k)) as [Hs Hf]. apply too_small_false in Ets.
    split.
    + constructor; [exact Hs|exact Hf].
    + constructor.
      * destruct last as [l|]; [exact Ets|exact I].
      * destruct last as [l|]; [|apply Forall_forall; intros x _; exact I].
        eapply Forall_impl; [|exact Hf]. intros kv Hkv. cbn in *.
        eapply bcmp_trans; eassumption.
Qed.

Lemma accepted_ascending calls :
  StronglySorted (fun a b => bcmp (fst a) (fst b) = Lt) (accepted calls).
Proof. apply spec_run_sorted. Qed.

Lemma skipn_len_le {A} n (l : list A) : (length (skipn n l) = length l - n)%nat.
Proof. apply skipn_length. Qed.

(* a failed index append: the data writer appended, then seeks back to the offset before *)
Definition w_undo (c : codec) (r : option bytes) (s : wstate) : wstate :=
  match w_seek (w_size s) (fst (w_write c r s)) with Ok d => d | Err _ => fst (w_write c r s) end.

Lemma wrep_undo c r s F : wrep s F -> wrep (w_undo c r s) F.
Proof.
  intro H. pose proof (wrep_write c r s F H) as H'. destruct H as (_ & _ & Hc & H8 & _).
  unfold w_undo, w_size. rewrite w_seek_eq.
  replace (_ || _) with false
    by (symmetry; apply orb_false_iff; split; apply N.ltb_ge; [exact H8|rewrite w_cur_write; apply N.le_add_r]).
  rewrite Hc in *. exact (wrep_seek _ F (enc_rec c r) H' H8).
Qed.

Lemma tw_step f k v s :
  tw_write_next f k v s =
  if too_small (tw_last s) k then (s, Err Rejected)
  else match f with
       | FailData =>
           (mkTW (tw_ci s) (tw_cd s) (tw_idx s) (tw_data s)
                 (tw_last s) (tw_min s) (tw_num s) (tw_nulls s) (k :: tw_bloom s), Err Other)
       | FailIndex =>
           (mkTW (tw_ci s) (tw_cd s) (tw_idx s) (w_undo (tw_cd s) v (tw_data s))
                 (tw_last s) (tw_min s) (tw_num s) (tw_nulls s) (k :: tw_bloom s), Err Other)
       | NoFault =>
           (mkTW (tw_ci s) (tw_cd s)
                 (fst (w_write (tw_ci s)
                         (Some (pb_index_entry k (w_cur (tw_data s)) (crc64iso (payload_of v)))) (tw_idx s)))
                 (fst (w_write (tw_cd s) v (tw_data s)))
                 (Some k)
                 (match tw_min s with Some m => Some m | None => Some k end)
                 (tw_num s + 1)
                 (match v with None => tw_nulls s + 1 | Some _ => tw_nulls s end)
                 (k :: tw_bloom s), Ok tt)
       end.
Proof.
  unfold tw_write_next. fold (too_small (tw_last s) k).
  destruct (too_small (tw_last s) k); [reflexivity|].
  destruct f.
  - rewrite <- (write_returns_cur (tw_cd s) v (tw_data s)).
    destruct (w_write (tw_cd s) v (tw_data s)) as [d' off]. cbn [fst snd].
    destruct (w_write (tw_ci s) _ (tw_idx s)) as [i' o']. reflexivity.
  - reflexivity.
  - unfold w_undo. destruct (w_write (tw_cd s) v (tw_data s)) as [d' off]. reflexivity.
Qed.

Lemma tw_run_cons f k v rest s :
  tw_run ((f, k, v) :: rest) s =
  (fst (tw_run rest (fst (tw_write_next f k v s))),
   snd (tw_write_next f k v s) :: snd (tw_run rest (fst (tw_write_next f k v s)))).
Proof.
  cbn [tw_run]. destruct (tw_write_next f k v s) as [s' r]. cbn [fst snd].
  destruct (tw_run rest s') as [s'' rs]. reflexivity.
Qed.

Lemma hd_error_snoc {A} (l : list A) x :
  hd_error (l ++ [x]) = match hd_error l with Some y => Some y | None => Some x end.
Proof. destruct l as [|y l]; reflexivity. Qed.

Lemma tw_run_results calls : forall s, snd (tw_run calls s) = fst (spec_run calls (tw_last s)).
Proof.
  induction calls as [|[[f k] v] rest IH]; intros s; [reflexivity|].
  rewrite tw_run_cons, spec_run_cons, tw_step. cbn [snd].
  destruct (too_small (tw_last s) k); [cbn [fst snd]; rewrite IH; reflexivity|].
  destruct f; cbn [fst snd]; rewrite IH; reflexivity.
Qed.

Definition entry_pb (e : bytes * N * N) : bytes := pb_index_entry (fst (fst e)) (snd (fst e)) (snd e).

Section Facts.
  Variables ci cd : codec.

  Definition vsize_ok (v : option bytes) : Prop :=
    lenN (payload_of v) < 2 ^ 64 /\ lenN (comp cd (payload_of v)) < 2 ^ 64.
  Definition calls_ok (calls : list call) : Prop := Forall (fun c => vsize_ok (snd c)) calls.

  (* offsets are where the values start in the data file *)
  Fixpoint entries_of (kvs : list (bytes * option bytes)) (off : N) : list (bytes * N * N) :=
    match kvs with
    | [] => []
    | (k, v) :: rest => (k, off, crc64iso (payload_of v)) :: entries_of rest (off + lenN (enc_rec cd v))
    end.

  Definition count_nil (kvs : list (bytes * option bytes)) : N :=
    N.of_nat (length (filter (fun kv => match snd kv with None => true | Some _ => false end) kvs)).

  Definition ienc (e : bytes * N * N) : bytes :=
    enc_rec ci (Some (pb_index_entry (fst (fst e)) (snd (fst e)) (snd e))).

  Lemma entries_of_snoc acc k v : forall off,
    entries_of (acc ++ [(k, v)]) off
    = entries_of acc off
      ++ [(k, off + lenN (flat_map (fun kv => enc_rec cd (snd kv)) acc), crc64iso (payload_of v))].
  Proof.
    induction acc as [|[k0 v0] acc IH]; intros off; cbn [app entries_of flat_map snd].
    - rewrite N.add_0_r. reflexivity.
    - rewrite IH, lenN_app, N.add_assoc. reflexivity.
  Qed.

  Record tw_inv (s : tw) (acc : list (bytes * option bytes)) : Prop := {
    inv_ci : tw_ci s = ci;
    inv_cd : tw_cd s = cd;
    inv_num : tw_num s = N.of_nat (length acc);
    inv_nulls : tw_nulls s = count_nil acc;
    inv_min : tw_min s = option_map fst (hd_error acc);
    inv_last : tw_last s = option_map fst (hd_error (rev acc));
    inv_bloom : forall kv, In kv acc -> In (fst kv) (tw_bloom s);
    inv_data : wrep (tw_data s) (file_hdr (ctype cd) ++ flat_map (fun kv => enc_rec cd (snd kv)) acc);
    inv_idx : wrep (tw_idx s) (file_hdr (ctype ci) ++ flat_map ienc (entries_of acc 8))
  }.

  Lemma tw_inv_open : tw_inv (tw_open ci cd) [].
  Proof. constructor; try reflexivity; [intros kv []|apply wrep_open|apply wrep_open]. Qed.

  (* a rejected or failed call leaves no trace but in the bloom filter *)
  Lemma tw_inv_next f k v s acc : tw_inv s acc ->
    tw_inv (fst (tw_write_next f k v s))
      (if too_small (tw_last s) k then acc else match f with NoFault => acc ++ [(k, v)] | _ => acc end).
  Proof.
    intros [Hci Hcd Hn Hz Hm Hl Hb HD HI]. rewrite tw_step.
    destruct (too_small (tw_last s) k); [constructor; assumption|].
    destruct f; cbn [fst]; constructor; cbn [tw_ci tw_cd tw_idx tw_data tw_last tw_min tw_num tw_nulls tw_bloom];
      try assumption; try (intros kv Hin; right; exact (Hb kv Hin)).
    - rewrite Hn, app_length, Nat.add_1_r, Nat2N.inj_succ, N.add_1_r. reflexivity.
    - unfold count_nil in *. rewrite Hz, filter_app, app_length, Nat2N.inj_add. cbn [filter snd].
      destruct v; [symmetry; apply N.add_0_r|reflexivity].
    - rewrite Hm, hd_error_snoc. destruct (hd_error acc); reflexivity.
    - rewrite rev_unit. reflexivity.
    - intros kv Hin. apply in_app_or in Hin. destruct Hin as [Hin|[<-|[]]]; [right; exact (Hb kv Hin)|left; reflexivity].
    - rewrite flat_map_app, app_assoc, Hcd. cbn [flat_map snd]. rewrite app_nil_r. apply wrep_write, HD.
    - rewrite entries_of_snoc, flat_map_app, app_assoc, Hci. cbn [flat_map]. rewrite app_nil_r.
      destruct HD as (junk & _ & -> & _). rewrite lenN_app. apply wrep_write, HI.
    - rewrite Hcd. apply wrep_undo, HD.
  Qed.

  Lemma tw_last_next f k v s :
    tw_last (fst (tw_write_next f k v s))
    = if too_small (tw_last s) k then tw_last s else match f with NoFault => Some k | _ => tw_last s end.
  Proof. rewrite tw_step. destruct (too_small (tw_last s) k); [|destruct f]; reflexivity. Qed.

  Lemma tw_inv_run calls : forall s acc, tw_inv s acc ->
    tw_inv (fst (tw_run calls s)) (acc ++ snd (spec_run calls (tw_last s))).
  Proof.
    induction calls as [|[[f k] v] rest IH]; intros s acc H; [rewrite app_nil_r; exact H|].
    rewrite tw_run_cons, spec_run_cons. cbn [fst].
    pose proof (IH _ _ (tw_inv_next f k v s acc H)) as H1. rewrite tw_last_next in H1.
    destruct (too_small (tw_last s) k); [exact H1|].
    destruct f; cbn [snd]; try exact H1. rewrite <- app_assoc in H1. exact H1.
  Qed.

  Lemma tw_inv_closed calls : tw_inv (fst (tw_run calls (tw_open ci cd))) (accepted calls).
  Proof. exact (tw_inv_run calls (tw_open ci cd) [] tw_inv_open). Qed.

  Theorem writer_results calls :
    snd (tw_run calls (tw_open ci cd)) = fst (spec_run calls None).
  Proof. apply (tw_run_results calls (tw_open ci cd)). Qed.

  Lemma closed_files calls (t := tw_close (fst (tw_run calls (tw_open ci cd)))) :
    tf_data t = file_hdr (ctype cd) ++ flat_map (fun kv => enc_rec cd (snd kv)) (accepted calls)
    /\ tf_index t = file_hdr (ctype ci) ++ flat_map ienc (entries_of (accepted calls) 8).
  Proof.
    pose proof (tw_inv_closed calls) as H. unfold t, tw_close. cbn [tf_data tf_index].
    split; [exact (proj1 (wrep_close _ _ (inv_data _ _ H)))|exact (proj1 (wrep_close _ _ (inv_idx _ _ H)))].
  Qed.

  (* the premise calls_ok, here and in metadata_truthful, is idle: the writer never looks at sizes *)
  Theorem writer_accepts_exactly calls :
    calls_ok calls ->
    let t := tw_close (fst (tw_run calls (tw_open ci cd))) in
    let acc := accepted calls in
    tf_data t = file_hdr (ctype cd) ++ flat_map (fun kv => enc_rec cd (snd kv)) acc
    /\ tf_index t = file_hdr (ctype ci)
         ++ flat_map (fun e => enc_rec ci (Some (pb_index_entry (fst (fst e)) (snd (fst e)) (snd e)))) (entries_of acc 8).
  Proof.
    intros _. exact (closed_files calls).
  Qed.

  Theorem metadata_truthful calls :
    calls_ok calls ->
    let t := tw_close (fst (tw_run calls (tw_open ci cd))) in
    let acc := accepted calls in
    tf_num t = N.of_nat (length acc)
    /\ tf_nulls t = count_nil acc
    /\ tf_min t = option_map fst (hd_error acc)
    /\ tf_max t = option_map fst (hd_error (rev acc))
    /\ tf_data_bytes t = lenN (tf_data t)
    /\ tf_index_bytes t = lenN (tf_index t).
  Proof.
    intros _. cbv zeta. pose proof (tw_inv_closed calls) as H.
    destruct (wrep_close _ _ (inv_data _ _ H)) as [HD1 HD2]. destruct (wrep_close _ _ (inv_idx _ _ H)) as [HI1 HI2].
    unfold tw_close. cbn [tf_num tf_nulls tf_min tf_max tf_data_bytes tf_index_bytes tf_data tf_index].
    split; [exact (inv_num _ _ H)|]. split; [exact (inv_nulls _ _ H)|]. split; [exact (inv_min _ _ H)|].
    split; [exact (inv_last _ _ H)|]. split; [rewrite HD1; exact HD2|rewrite HI1; exact HI2].
  Qed.

  Theorem bloom_has_accepted calls :
    forall kv, In kv (accepted calls) -> In (fst kv) (tf_bloom (tw_close (fst (tw_run calls (tw_open ci cd))))).
  Proof.
    intros kv Hin. exact (inv_bloom _ _ (tw_inv_closed calls) kv Hin).
  Qed.
End Facts.

Definition id_codec : codec := mkCodec 0 (fun x => x) (fun x => Ok x).

(* non-vacuity: first and last call fail, the keys 10 and 30 are retried, one key goes backwards *)
Example writer_example :
  let calls := [(FailData, [10], Some [1]); (NoFault, [10], Some [2]); (NoFault, [5], Some [3]);
                (NoFault, [20], None); (FailIndex, [30], Some [4]); (NoFault, [30], Some []); (FailIndex, [40], None)] in
  accepted calls = [([10], Some [2]); ([20], None); ([30], Some [])]
  /\ snd (tw_run calls (tw_open id_codec id_codec)) = [Err Other; Ok tt; Err Rejected; Ok tt; Err Other; Ok tt; Err Other]
  /\ tf_max (tw_close (fst (tw_run calls (tw_open id_codec id_codec)))) = Some [30]
  /\ tf_min (tw_close (fst (tw_run calls (tw_open id_codec id_codec)))) = Some [10].
Proof. vm_compute. repeat split; reflexivity. Qed.

Print Assumptions accepted_ascending.
Print Assumptions writer_results.
Print Assumptions writer_accepts_exactly.
Print Assumptions metadata_truthful.
Print Assumptions bloom_has_accepted.
Print Assumptions writer_example.
