(* C03: a table written from strictly ascending pairs answers Contains / Get / Scan /
   ScanStartingAt / ScanRange exactly like the sorted map of those pairs - for the slice,
   skip-list and (fixed-width) map loaders and every pair of codecs, with the bloom filter the
   writer built; for the slice loader Contains is also shown under any filter without false
   negatives (bloom_false_positives_harmless). (Disk loader: SST/DiskIndexFacts.v.) *)
From GoSST Require Import Base.Bytes Base.Order Base.ListFacts Base.Crc Base.CrcFacts Base.ProtoWire Base.ProtoWireFacts.
From GoSST Require Import Struct.SkipList Struct.SkipListFacts.
From GoSST Require Import RecordIO.Format RecordIO.FormatFacts RecordIO.SeqReader RecordIO.MmapReader RecordIO.WriteReadFacts.
From GoSST Require Import SST.TableWriter SST.TableWriterFacts SST.Index SST.IndexFacts SST.TableReader.
From Coq Require Import Lia Sorting.Sorted.
Local Open Scope N_scope.

Definition tpairs := list (bytes * option bytes).
Definition psorted (kvs : tpairs) : Prop := StronglySorted (fun a b => bcmp (fst a) (fst b) = Lt) kvs.

Fixpoint p_get (k : bytes) (l : tpairs) : option (option bytes) :=
  match l with
  | [] => None
  | (k', v) :: r => if beqb k k' then Some v else p_get k r
  end.

Definition spec_contains (kvs : tpairs) (k : bytes) : bool := match p_get k kvs with Some _ => true | None => false end.
Definition spec_get (kvs : tpairs) (k : bytes) : res (option bytes) :=
  match p_get k kvs with Some v => Ok v | None => Err NotFound end.
Definition spec_from (kvs : tpairs) (a : bytes) : tpairs := filter (fun kv => negb (bltb (fst kv) a)) kvs.
Definition spec_range (kvs : tpairs) (a b : bytes) : tpairs := filter (fun kv => bleb a (fst kv) && bleb (fst kv) b) kvs.

Definition behaves_as_sorted_map (r : reader) (kvs : tpairs) : Prop :=
  (forall k, rd_contains r k = Ok (spec_contains kvs k))
  /\ (forall k, rd_get r k = spec_get kvs k)
  /\ rd_scan r = (kvs, None)
  /\ (forall a, rd_scan_from r a = (spec_from kvs a, None))
  /\ (forall a b, bcmp a b <> Gt -> rd_scan_range r a b = Some (spec_range kvs a b, None))
  /\ (forall a b, bcmp a b = Gt -> rd_scan_range r a b = None).

(* Values are byte strings; keys need no such restriction.  The hypothesis cannot be dropped: [bytes] is
   [list N], and the CRC-64 of a value such as [2^100] does not fit 64 bits, so that the checksum varint of
   its index entry does not round-trip and the index load fails with Overflow ([needs_byte_values]). *)
Definition val_ok (kv : bytes * option bytes) : Prop := Forall (fun b => b < 256) (payload_of (snd kv)).

Lemma p_get_in k v kvs : p_get k kvs = Some v -> In (k, v) kvs.
Proof.
  induction kvs as [|[k' v'] rest IH]; [discriminate|]. cbn [p_get].
  unfold beqb. destruct (bcmp k k') eqn:E; try (intros H; right; apply IH; exact H).
  intros H. injection H as ->. apply bcmp_eq in E. subst k'. left. reflexivity.
Qed.

Lemma sl_sorted es : esorted es -> sorted bcmp (sl_of es).
Proof.
  induction es as [|e es IH]; intros Hs; [constructor|].
  apply StronglySorted_inv in Hs. destruct Hs as [Hs' Hh].
  cbn [sl_of map]. constructor; [apply IH; exact Hs'|].
  apply Forall_map. exact Hh.
Qed.

Lemma sl_heights es : heights_ok (sl_of es).
Proof. unfold heights_ok, sl_of. apply Forall_map. apply Forall_forall. intros e _. cbn [th]. lia. Qed.

Lemma assoc_find key es :
  assoc bcmp key (kvs (sl_of es)) = option_map ival (find (fun e => beqb (ikey e) key) es).
Proof.
  induction es as [|e es IH]; [reflexivity|].
  cbn [sl_of map kvs assoc find tkey tval]. unfold beqb.
  rewrite (bcmp_antisym key (ikey e)).
  destruct (bcmp key (ikey e)); cbn [CompOpp option_map]; try reflexivity; exact IH.
Qed.

Lemma of_kvs_filter (f : bytes -> bool) es :
  of_kvs (filter (fun kv => f (fst kv)) (kvs (sl_of es))) = filter (fun e => f (ikey e)) es.
Proof.
  induction es as [|e es IH]; [reflexivity|].
  cbn [sl_of map kvs filter tkey tval fst]. fold (sl_of es). fold (kvs (sl_of es)).
  destruct (f (ikey e)); [|exact IH].
  cbn [of_kvs map]. fold (of_kvs (filter (fun kv => f (fst kv)) (kvs (sl_of es)))). rewrite IH.
  destruct e as [[k o] c]. reflexivity.
Qed.

Lemma sl_filter_from a es :
  of_kvs (filter (ge_key bcmp a) (kvs (sl_of es))) = filter (fun e => negb (bltb (ikey e) a)) es.
Proof.
  rewrite <- (of_kvs_filter (fun x => negb (bltb x a))). f_equal. apply filter_ext.
  intros kv. unfold ge_key, bltb. destruct (bcmp (fst kv) a); reflexivity.
Qed.

Lemma sl_filter_between a b es :
  of_kvs (filter (fun kv => ge_key bcmp a kv && le_key bcmp b kv) (kvs (sl_of es)))
  = filter (fun e => bleb a (ikey e) && bleb (ikey e) b) es.
Proof.
  rewrite <- (of_kvs_filter (fun x => bleb a x && bleb x b)). f_equal. apply filter_ext.
  intros kv. unfold ge_key, le_key, bleb. rewrite (bcmp_antisym (fst kv) a).
  destruct (bcmp (fst kv) a); destruct (bcmp (fst kv) b); reflexivity.
Qed.

Lemma pb_index_entry_lenN k off crc : lenN (pb_index_entry k off crc) <= lenN k + 60.
Proof. unfold lenN. pose proof (pb_index_entry_len k off crc). lia. Qed.

Section Facts.
  Variables ci cd : codec.
  Hypothesis ci_ok : forall x, decomp ci (comp ci x) = Ok x.
  Hypothesis cd_ok : forall x, decomp cd (comp cd x) = Ok x.
  Hypothesis ci_type : ctype ci <= 3.
  Hypothesis cd_type : ctype cd <= 3.

  (* sizes are uint64 in the code; the key stays below 2^32 so that the index entry (the key and at most 60
     bytes of framing, pb_index_entry_lenN) is below 2^64 as well *)
  Definition pair_ok (kv : bytes * option bytes) : Prop :=
    lenN (fst kv) < 2 ^ 32
    /\ lenN (payload_of (snd kv)) < 2 ^ 64 /\ lenN (comp cd (payload_of (snd kv))) < 2 ^ 64
    /\ (forall off crc, off < 2 ^ 64 -> crc < 2 ^ 64 -> lenN (comp ci (pb_index_entry (fst kv) off crc)) < 2 ^ 64).
  Definition file_ok (kvs : tpairs) : Prop :=
    8 + lenN (flat_map (fun kv => enc_rec cd (snd kv)) kvs) < 2 ^ 64.

  Definition calls_of (kvs : tpairs) : list call := map (fun kv => (NoFault, fst kv, snd kv)) kvs.

  Lemma spec_run_all kvs : forall last, psorted kvs -> Forall (above last) kvs ->
    snd (spec_run (calls_of kvs) last) = kvs.
  Proof.
    induction kvs as [|[k v] rest IH]; intros last Hs Ha; [reflexivity|].
    unfold calls_of. cbn [map fst snd]. rewrite spec_run_cons.
    apply StronglySorted_inv in Hs. destruct Hs as [Hs' Hh].
    pose proof (Forall_inv Ha) as Hk.
    assert (Hts : too_small last k = false).
    { unfold too_small. destruct last as [l|]; [|reflexivity]. cbn in Hk. rewrite Hk. reflexivity. }
    rewrite Hts. cbn [snd]. f_equal. apply (IH (Some k)); [exact Hs'|exact Hh].
  Qed.

  Lemma accepted_all kvs : psorted kvs -> accepted (calls_of kvs) = kvs.
  Proof.
    intros Hs. unfold accepted. apply spec_run_all; [exact Hs|].
    apply Forall_forall. intros x _. exact I.
  Qed.

  Definition dfile (kvs : tpairs) : bytes :=
    file_hdr (ctype cd) ++ flat_map (fun kv => enc_rec cd (snd kv)) kvs.
  Definition ifile (kvs : tpairs) : bytes :=
    file_hdr (ctype ci) ++ flat_map (ienc ci) (entries_of cd kvs 8).

  Lemma pair_ok_size kv : pair_ok kv -> size_ok cd (snd kv).
  Proof. intros (_ & Hp & Hc & _). exact (conj Hp Hc). Qed.

  Lemma pairs_ok_size kvs : Forall pair_ok kvs -> Forall (fun kv => size_ok cd (snd kv)) kvs.
  Proof. apply Forall_impl. exact pair_ok_size. Qed.

  Lemma written_files kvs : psorted kvs ->
    tf_data (write_table ci cd kvs) = dfile kvs /\ tf_index (write_table ci cd kvs) = ifile kvs.
  Proof.
    intros Hs. pose proof (closed_files ci cd (calls_of kvs)) as H. cbv zeta in H.
    rewrite (accepted_all kvs Hs) in H. exact H.
  Qed.

  Lemma entries_keys kvs : forall off, map ikey (entries_of cd kvs off) = map fst kvs.
  Proof.
    induction kvs as [|[k v] rest IH]; intros off; [reflexivity|]. cbn [entries_of map]. rewrite IH. reflexivity.
  Qed.

  Lemma entries_sorted kvs : psorted kvs -> esorted (entries_of cd kvs 8).
  Proof.
    intros Hs. apply (StronglySorted_map (fun a b => bcmp a b = Lt) ikey). rewrite entries_keys.
    apply StronglySorted_map. exact Hs.
  Qed.

  Definition entry_ok (e : ientry) : Prop :=
    size_ok ci (Some (entry_pb e)) /\ pb_dec_index_entry (entry_pb e) = Ok e.

  Lemma entries_ok kvs : forall off, Forall pair_ok kvs -> Forall val_ok kvs ->
    off + lenN (flat_map (fun kv => enc_rec cd (snd kv)) kvs) < 2 ^ 64 ->
    Forall entry_ok (entries_of cd kvs off).
  Proof.
    induction kvs as [|[k v] rest IH]; intros off Hp Hv Hb; [constructor|].
    cbn [entries_of flat_map snd] in *. rewrite lenN_app in Hb.
    pose proof (Forall_inv Hp) as (Hk & _ & _ & Hi). pose proof (Forall_inv Hv) as Hvv.
    cbn [fst snd] in Hk, Hi. unfold val_ok in Hvv. cbn [snd] in Hvv.
    pose proof (crc64iso_lt _ Hvv) as Hcrc.
    assert (Hoff : off < 2 ^ 64) by lia.
    constructor.
    - split; unfold entry_pb; cbn [fst snd].
      + split; cbn [payload]; [|apply Hi; assumption].
        pose proof (pb_index_entry_lenN k off (crc64iso (payload_of v))). lia.
      + apply pb_index_entry_roundtrip; try assumption. unfold lenN in Hk. lia.
    - apply IH; [exact (Forall_inv_tail Hp)|exact (Forall_inv_tail Hv)|lia].
  Qed.

  Lemma load_entries_concat es : forall fuel pre, Forall entry_ok es -> (length es < fuel)%nat ->
    load_entries fuel ci (pre ++ flat_map (ienc ci) es) (lenN pre) = Ok es.
  Proof.
    induction es as [|e es IH]; intros fuel pre HF HL; (destruct fuel as [|fuel]; [cbn [length] in HL; lia|]).
    - cbn [flat_map load_entries]. rewrite app_nil_r, read_next_end. reflexivity.
    - pose proof (Forall_inv HF) as [Hs Hd]. pose proof (Forall_inv_tail HF) as HF'.
      cbn [flat_map load_entries]. change (ienc ci e) with (enc_rec ci (Some (entry_pb e))).
      rewrite (read_next_one ci ci_ok) by exact Hs. cbv beta iota.
      rewrite Hd. rewrite <- lenN_app, app_assoc.
      rewrite IH; [reflexivity|exact HF'|cbn [length] in HL; lia].
  Qed.

  Lemma entries_len es : (length es <= length (flat_map (ienc ci) es))%nat.
  Proof.
    induction es as [|e es IH]; cbn [flat_map length]; [lia|]. rewrite app_length.
    pose proof (enc_rec_pos ci (Some (entry_pb e))) as Hp.
    change (ienc ci e) with (enc_rec ci (Some (entry_pb e))). unfold lenN in Hp. lia.
  Qed.

  Lemma load_index_ok kvs : Forall pair_ok kvs -> Forall val_ok kvs -> file_ok kvs ->
    load_index ci (ifile kvs) = Ok (entries_of cd kvs 8).
  Proof.
    intros Hp Hv Hf. unfold load_index, r_open, ifile.
    rewrite parse_file_hdr_ok by exact ci_type.
    change file_header_size with (lenN (file_hdr (ctype ci))).
    apply load_entries_concat; [apply entries_ok; assumption|].
    rewrite app_length. pose proof (entries_len (entries_of cd kvs 8)). unfold ientry in *. lia.
  Qed.

  Definition addresses (r : reader) (e : ientry) (kv : bytes * option bytes) : Prop :=
    ikey e = fst kv /\ snd e = crc64iso (payload_of (snd kv))
    /\ read_at (r_cd r) (r_data r) (snd (fst e)) = Ok (snd kv).

  Lemma addresses_value r e kv : addresses r e kv ->
    forall skip, get_value_at r (snd (fst e)) (snd e) skip = Ok (snd kv).
  Proof.
    intros (_ & Hc & Hr) skip. unfold get_value_at. rewrite Hr, Hc, N.eqb_refl.
    destruct skip; reflexivity.
  Qed.

  Lemma addresses_entries r : r_cd r = cd -> forall kvs pre,
    Forall (fun kv => size_ok cd (snd kv)) kvs ->
    r_data r = pre ++ flat_map (fun kv => enc_rec cd (snd kv)) kvs ->
    Forall2 (addresses r) (entries_of cd kvs (lenN pre)) kvs.
  Proof.
    intros Hcd. induction kvs as [|[k v] rest IH]; intros pre HF HD; [constructor|].
    pose proof (Forall_inv HF) as Hv. pose proof (Forall_inv_tail HF) as HF'.
    cbn [entries_of flat_map snd] in *.
    constructor.
    - split; [reflexivity|]. split; [reflexivity|]. cbn [fst snd]. rewrite Hcd, HD.
      apply (read_at_one cd cd_ok). exact Hv.
    - rewrite <- lenN_app. apply IH; [exact HF'|]. rewrite HD, app_assoc. reflexivity.
  Qed.

  Lemma scan_full_ok r : r_cd r = cd -> forall kvs pre,
    Forall (fun kv => size_ok cd (snd kv)) kvs ->
    r_data r = pre ++ flat_map (fun kv => enc_rec cd (snd kv)) kvs ->
    scan_full r (entries_of cd kvs (lenN pre)) (lenN pre) = (kvs, None).
  Proof.
    intros Hcd. induction kvs as [|[k v] rest IH]; intros pre HF HD; [reflexivity|].
    pose proof (Forall_inv HF) as Hv. pose proof (Forall_inv_tail HF) as HF'.
    cbn [entries_of flat_map snd] in *. cbn [scan_full]. rewrite Hcd, HD.
    rewrite (read_next_one cd cd_ok) by exact Hv. cbn [snd].
    rewrite N.eqb_refl. cbn [negb]. rewrite andb_false_r. cbn [andb].
    rewrite <- lenN_app. rewrite IH; [reflexivity|exact HF'|].
    rewrite HD, app_assoc. reflexivity.
  Qed.

  Lemma validate_addresses r es kvs : Forall2 (addresses r) es kvs -> validate_all r es = Ok tt.
  Proof.
    induction 1 as [|e kv es kvs Hg _ IH]; [reflexivity|].
    cbn [validate_all]. rewrite (addresses_value r e kv Hg). exact IH.
  Qed.

  Lemma scan_by_index_addresses r es kvs : Forall2 (addresses r) es kvs -> scan_by_index r es = (kvs, None).
  Proof.
    induction 1 as [|e kv es kvs Hg _ IH]; [reflexivity|].
    cbn [scan_by_index]. rewrite (addresses_value r e kv Hg), IH.
    destruct Hg as (Hk & _). rewrite Hk. destruct kv; reflexivity.
  Qed.

  Lemma find_addresses r es kvs k : Forall2 (addresses r) es kvs ->
    match find (fun e => beqb (ikey e) k) es with
    | Some e => exists v, p_get k kvs = Some v
                  /\ forall skip, get_value_at r (snd (fst e)) (snd e) skip = Ok v
    | None => p_get k kvs = None
    end.
  Proof.
    induction 1 as [|e kv es kvs Hg _ IH]; [reflexivity|].
    cbn [find]. destruct kv as [k' v]. cbn [p_get].
    pose proof Hg as (Hk & _). cbn [fst] in Hk. rewrite Hk, (beqb_sym k' k).
    destruct (beqb k k'); [|exact IH].
    exists v. split; [reflexivity|]. intros skip. apply (addresses_value r e (k', v) Hg).
  Qed.

  Lemma addresses_filter r (f : bytes -> bool) es kvs : Forall2 (addresses r) es kvs ->
    Forall2 (addresses r) (filter (fun e => f (ikey e)) es) (filter (fun kv => f (fst kv)) kvs).
  Proof.
    apply Forall2_filter. intros e kv (Hk & _). rewrite Hk. reflexivity.
  Qed.

  Lemma contains_ok r es kvs k : Forall2 (addresses r) es kvs ->
    idx_get r k = Ok (option_map ival (find (fun e => beqb (ikey e) k) es)) ->
    (forall kv, In kv kvs -> r_bloom r (fst kv) = true) ->
    rd_contains r k = Ok (spec_contains kvs k).
  Proof.
    intros HG Hget Hb. unfold rd_contains, spec_contains. rewrite Hget.
    pose proof (find_addresses r es kvs k HG) as Hf.
    destruct (r_bloom r k) eqn:Eb; cbn [negb].
    - destruct (find (fun e => beqb (ikey e) k) es) as [e|]; cbn [option_map].
      + destruct Hf as (v & Hp & _). rewrite Hp. reflexivity.
      + rewrite Hf. reflexivity.
    - destruct (p_get k kvs) as [v|] eqn:Ep; [|reflexivity].
      exfalso. apply p_get_in in Ep. pose proof (Hb _ Ep) as Hb'. cbn [fst] in Hb'. congruence.
  Qed.

  Lemma get_ok r es kvs k : Forall2 (addresses r) es kvs ->
    idx_get r k = Ok (option_map ival (find (fun e => beqb (ikey e) k) es)) ->
    rd_get r k = spec_get kvs k.
  Proof.
    intros HG Hget. unfold rd_get, spec_get. rewrite Hget.
    pose proof (find_addresses r es kvs k HG) as Hf.
    destruct (find (fun e => beqb (ikey e) k) es) as [e|]; cbn [option_map].
    - destruct Hf as (v & Hp & Hv). rewrite Hp. unfold ival. apply Hv.
    - rewrite Hf. reflexivity.
  Qed.

  Lemma parse_dfile kvs : parse_file_hdr (dfile kvs) = Ok (4, ctype cd).
  Proof. unfold dfile. apply parse_file_hdr_ok. exact cd_type. Qed.

  Lemma scan_ok r kvs : r_cd r = cd -> r_data r = dfile kvs ->
    Forall (fun kv => size_ok cd (snd kv)) kvs ->
    idx_all r = Ok (entries_of cd kvs 8) -> rd_scan r = (kvs, None).
  Proof.
    intros Hcd HD HS Hall. unfold rd_scan, r_open. rewrite Hall, HD, parse_dfile.
    pose proof (scan_full_ok r Hcd kvs (file_hdr (ctype cd)) HS HD) as H.
    change (lenN (file_hdr (ctype cd))) with 8 in H. exact H.
  Qed.

  Lemma from_ok r es kvs a : Forall2 (addresses r) es kvs ->
    idx_from r a = Ok (filter (fun e => negb (bltb (ikey e) a)) es) ->
    rd_scan_from r a = (spec_from kvs a, None).
  Proof.
    intros HG Hfrom. unfold rd_scan_from, spec_from. rewrite Hfrom.
    apply scan_by_index_addresses. apply (addresses_filter r (fun x => negb (bltb x a))). exact HG.
  Qed.

  Lemma range_ok r es kvs a b : Forall2 (addresses r) es kvs ->
    idx_between r a b = Ok (Some (filter (fun e => bleb a (ikey e) && bleb (ikey e) b) es)) ->
    rd_scan_range r a b = Some (spec_range kvs a b, None).
  Proof.
    intros HG Hbt. unfold rd_scan_range, spec_range. rewrite Hbt. f_equal.
    apply scan_by_index_addresses. apply (addresses_filter r (fun x => bleb a x && bleb x b)). exact HG.
  Qed.

  Lemma range_rejected r a b : idx_between r a b = Ok None -> rd_scan_range r a b = None.
  Proof. intros H. unfold rd_scan_range. rewrite H. reflexivity. Qed.

  Definition idx_spec (P : bytes -> Prop) (r : reader) (es : list ientry) : Prop :=
    idx_all r = Ok es
    /\ (forall k, P k -> idx_get r k = Ok (option_map ival (find (fun e => beqb (ikey e) k) es)))
    /\ (forall a, idx_from r a = Ok (filter (fun e => negb (bltb (ikey e) a)) es))
    /\ (forall a b, bcmp a b <> Gt ->
          idx_between r a b = Ok (Some (filter (fun e => bleb a (ikey e) && bleb (ikey e) b) es)))
    /\ (forall a b, bcmp a b = Gt -> idx_between r a b = Ok None).

  (* behaves_as_sorted_map with the point lookups restricted to probes in P; the conclusion of
     table_is_sorted_map_map is behaves_on (fun k => length k = w) *)
  Definition behaves_on (P : bytes -> Prop) (r : reader) (kvs : tpairs) : Prop :=
    (forall k, P k -> rd_contains r k = Ok (spec_contains kvs k))
    /\ (forall k, P k -> rd_get r k = spec_get kvs k)
    /\ rd_scan r = (kvs, None)
    /\ (forall a, rd_scan_from r a = (spec_from kvs a, None))
    /\ (forall a b, bcmp a b <> Gt -> rd_scan_range r a b = Some (spec_range kvs a b, None))
    /\ (forall a b, bcmp a b = Gt -> rd_scan_range r a b = None).

  Lemma behaves_all r kvs : behaves_on (fun _ => True) r kvs -> behaves_as_sorted_map r kvs.
  Proof. intros (H1 & H2 & H). split; [|split]; auto. Qed.

  Lemma addresses_dfile r kvs : r_cd r = cd -> r_data r = dfile kvs -> Forall pair_ok kvs ->
    Forall2 (addresses r) (entries_of cd kvs 8) kvs.
  Proof. intros Hcd HD Hp. exact (addresses_entries r Hcd kvs (file_hdr (ctype cd)) (pairs_ok_size kvs Hp) HD). Qed.

  Lemma idx_behaves P r kvs : r_cd r = cd -> r_data r = dfile kvs -> Forall pair_ok kvs ->
    (forall kv, In kv kvs -> r_bloom r (fst kv) = true) ->
    idx_spec P r (entries_of cd kvs 8) -> behaves_on P r kvs.
  Proof.
    intros Hcd HD Hp Hb (Hall & Hget & Hfrom & Hbt & Hrej).
    pose proof (addresses_dfile r kvs Hcd HD Hp) as HG.
    split; [|split; [|split; [|split; [|split]]]].
    - intros k Hk. exact (contains_ok r _ kvs k HG (Hget k Hk) Hb).
    - intros k Hk. exact (get_ok r _ kvs k HG (Hget k Hk)).
    - exact (scan_ok r kvs Hcd HD (pairs_ok_size kvs Hp) Hall).
    - intros a. exact (from_ok r _ kvs a HG (Hfrom a)).
    - intros a b Hab. exact (range_ok r _ kvs a b HG (Hbt a b Hab)).
    - intros a b Hab. apply range_rejected, Hrej, Hab.
  Qed.

  Definition mem_loader (ld : loader) : Prop := match ld with LDisk _ => False | _ => True end.

  Definition the_reader (ld : loader) (kvs : tpairs) (bloom : bytes -> bool) (chk : bool) : reader :=
    mkReader ld ci cd (ifile kvs) (entries_of cd kvs 8) (dfile kvs) bloom chk.

  Lemma open_ok ld kvs bloom chk : mem_loader ld ->
    Forall pair_ok kvs -> Forall val_ok kvs -> file_ok kvs ->
    open_reader ld ci cd (ifile kvs) (dfile kvs) bloom false chk = Ok (the_reader ld kvs bloom chk).
  Proof.
    intros Hld Hp Hv Hf.
    pose proof (addresses_dfile (the_reader ld kvs bloom chk) kvs eq_refl eq_refl Hp) as HG.
    pose proof (validate_addresses _ _ _ HG) as HV. unfold the_reader in *.
    destruct ld as [| |w|sl]; [| | |contradiction];
      (unfold open_reader; rewrite (load_index_ok kvs Hp Hv Hf), parse_dfile;
       cbn [idx_all r_loader r_entries]; rewrite HV; reflexivity).
  Qed.

  (* the slice and the map loader differ in the point lookup only *)
  Lemma slice_idx_spec (P : bytes -> Prop) r es : esorted es -> r_entries r = es ->
    (r_loader r = LSlice \/ exists w, r_loader r = LMap w) ->
    (forall k, P k -> idx_get r k = Ok (option_map ival (find (fun e => beqb (ikey e) k) es))) ->
    idx_spec P r es.
  Proof.
    intros Hs He Hl Hget.
    assert (H : idx_all r = Ok es /\ (forall a, idx_from r a = Ok (slice_from es a))
                /\ (forall a b, idx_between r a b = Ok (slice_between es a b))).
    { unfold idx_all, idx_from, idx_between. destruct Hl as [-> | [w ->]]; rewrite He; repeat split. }
    destruct H as (Hall & Hfrom & Hbt).
    split; [exact Hall|split; [exact Hget|split; [|split]]].
    - intros a. rewrite Hfrom, (slice_from_spec es a Hs). reflexivity.
    - intros a b Hab. rewrite Hbt, (slice_between_spec es a b Hs Hab). reflexivity.
    - intros a b Hab. rewrite Hbt, (slice_between_rejects es a b Hab). reflexivity.
  Qed.

  Lemma skiplist_idx_spec r es : esorted es -> r_entries r = es -> r_loader r = LSkipList ->
    idx_spec (fun _ => True) r es.
  Proof.
    intros Hs He Hl. pose proof (sl_sorted _ Hs) as Hss. pose proof (sl_heights es) as Hsh.
    unfold idx_spec, idx_all, idx_get, idx_from, idx_between. rewrite Hl, He.
    split; [reflexivity|split; [|split; [|split]]].
    - intros k _. change (map _ es) with (sl_of es).
      rewrite (get_spec bcmp bcmp_laws k _ Hss Hsh), assoc_find. reflexivity.
    - intros a. rewrite (scan_from_spec bcmp bcmp_laws a _ Hss Hsh), sl_filter_from. reflexivity.
    - intros a b Hab.
      rewrite (scan_between_spec bcmp bcmp_laws a b _ Hss Hsh Hab), sl_filter_between. reflexivity.
    - intros a b Hab. rewrite (scan_between_rejects bcmp a b _ Hab). reflexivity.
  Qed.

  Lemma bloom_in kvs : psorted kvs -> forall kv, In kv kvs ->
    existsb (bytes_eqb (fst kv)) (tf_bloom (write_table ci cd kvs)) = true.
  Proof.
    intros Hs kv Hin. apply existsb_exists. exists (fst kv). split.
    - unfold write_table. fold (calls_of kvs). apply bloom_has_accepted.
      rewrite (accepted_all kvs Hs). exact Hin.
    - rewrite bytes_eqb_beqb. apply beqb_refl.
  Qed.

  Lemma open_table_eq ld kvs : psorted kvs ->
    open_table ld (write_table ci cd kvs) ci cd
    = open_reader ld ci cd (ifile kvs) (dfile kvs)
        (fun k => existsb (bytes_eqb k) (tf_bloom (write_table ci cd kvs))) false false.
  Proof.
    intros Hs. unfold open_table. destruct (written_files kvs Hs) as [-> ->]. reflexivity.
  Qed.

  Lemma slice_reader_spec kvs bloom : psorted kvs ->
    idx_spec (fun _ => True) (the_reader LSlice kvs bloom false) (entries_of cd kvs 8).
  Proof.
    intros Hs. pose proof (entries_sorted kvs Hs) as Hes.
    apply (slice_idx_spec _ (the_reader LSlice kvs bloom false) _ Hes eq_refl (or_introl eq_refl)).
    intros k _. exact (f_equal Ok (slice_get_spec _ k Hes)).
  Qed.

  Lemma mem_table_behaves P ld kvs : mem_loader ld ->
    psorted kvs -> Forall pair_ok kvs -> Forall val_ok kvs -> file_ok kvs ->
    (forall bloom, idx_spec P (the_reader ld kvs bloom false) (entries_of cd kvs 8)) ->
    exists r, open_table ld (write_table ci cd kvs) ci cd = Ok r /\ behaves_on P r kvs.
  Proof.
    intros Hld Hs Hp Hv Hf Hi. rewrite (open_table_eq ld kvs Hs).
    eexists. split; [apply open_ok; assumption|].
    apply idx_behaves; [reflexivity|reflexivity|exact Hp|exact (bloom_in kvs Hs)|apply Hi].
  Qed.

  (* slice loader (the default), opened with verify-on-load *)
  Theorem table_is_sorted_map_slice (kvs : tpairs) :
    psorted kvs -> Forall pair_ok kvs -> Forall val_ok kvs -> file_ok kvs ->
    exists r, open_table LSlice (write_table ci cd kvs) ci cd = Ok r /\ behaves_as_sorted_map r kvs.
  Proof.
    intros Hs Hp Hv Hf.
    destruct (mem_table_behaves (fun _ => True) LSlice kvs I Hs Hp Hv Hf) as (r & Ho & Hb).
    - intros bloom. exact (slice_reader_spec kvs bloom Hs).
    - exists r. split; [exact Ho|exact (behaves_all r kvs Hb)].
  Qed.

  Theorem table_is_sorted_map_skiplist (kvs : tpairs) :
    psorted kvs -> Forall pair_ok kvs -> Forall val_ok kvs -> file_ok kvs ->
    exists r, open_table LSkipList (write_table ci cd kvs) ci cd = Ok r /\ behaves_as_sorted_map r kvs.
  Proof.
    intros Hs Hp Hv Hf.
    destruct (mem_table_behaves (fun _ => True) LSkipList kvs I Hs Hp Hv Hf) as (r & Ho & Hb).
    - intros bloom. exact (skiplist_idx_spec (the_reader LSkipList kvs bloom false) _ (entries_sorted kvs Hs) eq_refl eq_refl).
    - exists r. split; [exact Ho|exact (behaves_all r kvs Hb)].
  Qed.

  (* map loader: keys and probes of exactly the mapper width *)
  Theorem table_is_sorted_map_map (w : nat) (kvs : tpairs) :
    psorted kvs -> Forall pair_ok kvs -> Forall val_ok kvs -> file_ok kvs ->
    Forall (fun kv => length (fst kv) = w) kvs ->
    exists r, open_table (LMap w) (write_table ci cd kvs) ci cd = Ok r
      /\ (forall k, length k = w -> rd_contains r k = Ok (spec_contains kvs k))
      /\ (forall k, length k = w -> rd_get r k = spec_get kvs k)
      /\ rd_scan r = (kvs, None)
      /\ (forall a, rd_scan_from r a = (spec_from kvs a, None))
      /\ (forall a b, bcmp a b <> Gt -> rd_scan_range r a b = Some (spec_range kvs a b, None))
      /\ (forall a b, bcmp a b = Gt -> rd_scan_range r a b = None).
  Proof.
    intros Hs Hp Hv Hf Hw.
    apply (mem_table_behaves (fun k => length k = w) (LMap w) kvs I Hs Hp Hv Hf).
    intros bloom. pose proof (entries_sorted kvs Hs) as Hes.
    apply (slice_idx_spec _ (the_reader (LMap w) kvs bloom false) _ Hes eq_refl (or_intror (ex_intro _ w eq_refl))).
    intros k Hk. refine (f_equal Ok (map_get_fixed_width w _ k Hes _ Hk)).
    apply (proj1 (Forall_map ikey (fun x => length x = w) _)). rewrite entries_keys. apply Forall_map. exact Hw.
  Qed.

  Theorem bloom_false_positives_harmless (kvs : tpairs) (bloom : bytes -> bool) :
    psorted kvs -> Forall pair_ok kvs -> Forall val_ok kvs -> file_ok kvs ->
    (forall kv, In kv kvs -> bloom (fst kv) = true) ->
    let t := write_table ci cd kvs in
    exists r, open_reader LSlice ci cd (tf_index t) (tf_data t) bloom false false = Ok r
      /\ (forall k, rd_contains r k = Ok (spec_contains kvs k)).
  Proof.
    intros Hs Hp Hv Hf Hb t. subst t. destruct (written_files kvs Hs) as [-> ->].
    exists (the_reader LSlice kvs bloom false).
    split; [apply open_ok; try assumption; exact I|].
    intros k. apply (idx_behaves (fun _ => True) (the_reader LSlice kvs bloom false) kvs eq_refl eq_refl Hp Hb); [|exact I].
    exact (slice_reader_spec kvs bloom Hs).
  Qed.
End Facts.

Definition id_codec : codec := mkCodec 0 (fun x => x) (fun x => Ok x).

Lemma id_pair_ok kv : lenN (fst kv) < 2 ^ 32 -> lenN (payload_of (snd kv)) < 2 ^ 64 ->
  pair_ok id_codec id_codec kv.
Proof.
  intros Hk Hv. unfold pair_ok. cbn [comp id_codec]. repeat split; try assumption.
  intros off crc _ _. apply N.le_lt_trans with (1 := pb_index_entry_lenN (fst kv) off crc).
  apply N.lt_le_trans with (2 ^ 32 + 60); [apply N.add_lt_mono_r, Hk|discriminate].
Qed.

Remark needs_byte_values :
  let kvs : tpairs := [([], Some [2 ^ 100])] in
  psorted kvs /\ Forall (pair_ok id_codec id_codec) kvs /\ file_ok id_codec kvs
  /\ ~ Forall val_ok kvs
  /\ 2 ^ 64 <= crc64iso [2 ^ 100]
  /\ open_table LSlice (write_table id_codec id_codec kvs) id_codec id_codec = Err Overflow.
Proof.
  cbv zeta. split; [repeat constructor|]. split.
  - constructor; [|constructor]. apply id_pair_ok; reflexivity.
  - split; [vm_compute; reflexivity|]. split.
    + intros H. apply Forall_inv in H. unfold val_ok in H. cbn [snd payload_of] in H.
      apply Forall_inv in H. vm_compute in H. discriminate H.
    + split; [vm_compute; discriminate|vm_compute; reflexivity].
Qed.

(* pair_ok: by id_pair_ok, in table_example *)
Example table_example_hyps :
  let kvs : tpairs := [([], Some [1]); ([0x61], None); ([0x61; 0], Some []); ([0x91; 0x8d; 0x4c], Some [0x91; 0x8d; 0x4c; 0])] in
  psorted kvs /\ Forall val_ok kvs /\ file_ok id_codec kvs.
Proof.
  cbv zeta. split; [repeat constructor|]. split; [|vm_compute; reflexivity].
  unfold val_ok. repeat constructor.
Qed.

(* the last key is the record marker, the last value a marker and 0 *)
Example table_example :
  let kvs : tpairs := [([], Some [1]); ([0x61], None); ([0x61; 0], Some []); ([0x91; 0x8d; 0x4c], Some [0x91; 0x8d; 0x4c; 0])] in
  match open_table LSlice (write_table id_codec id_codec kvs) id_codec id_codec with
  | Ok r => rd_scan r = (kvs, None)
            /\ rd_get r [0x61] = Ok None /\ rd_get r [0x62] = Err NotFound
            /\ rd_scan_range r [0x61] [0x61; 0] = Some ([([0x61], None); ([0x61; 0], Some [])], None)
  | Err _ => False
  end.
Proof.
  intros kvs. destruct table_example_hyps as (Hs & Hv & Hf). fold kvs in Hs, Hv, Hf.
  destruct (table_is_sorted_map_slice id_codec id_codec (fun _ => eq_refl) (fun _ => eq_refl)
              ltac:(discriminate) ltac:(discriminate) kvs Hs) as (r & -> & _ & Hg & Hsc & _ & Hr & _);
    [|exact Hv|exact Hf|].
  - repeat (apply Forall_cons || apply Forall_nil); apply id_pair_ok; reflexivity.
  - rewrite Hsc, !Hg, Hr by discriminate. vm_compute. repeat split; reflexivity.
Qed.

Print Assumptions table_is_sorted_map_slice.
Print Assumptions table_is_sorted_map_skiplist.
Print Assumptions table_is_sorted_map_map.
Print Assumptions bloom_false_positives_harmless.
Print Assumptions needs_byte_values.
Print Assumptions table_example.
