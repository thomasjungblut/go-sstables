(* C03, disk loader: the binary search over byte offsets of the index file (using SeekNext) and
   the offset-range iterators answer like the sorted map - for every scan window >= 4, provided no
   key embeds a complete record image of the index file's format (inherent to seeking by marker). *)
From GoSST Require Import Base.Bytes Base.Order Base.ListFacts Base.ProtoWire.
From GoSST Require Import RecordIO.Format RecordIO.FormatFacts RecordIO.SeqReader RecordIO.MmapReader RecordIO.WriteReadFacts RecordIO.SeekFacts.
From GoSST Require Import SST.TableWriter SST.TableWriterFacts SST.Index SST.IndexFacts SST.TableReader SST.TableReaderFacts.
From Coq Require Import Lia Sorting.Sorted.
Local Open Scope N_scope.

(* an index entry together with the start offset of its record in the index file *)
Definition orec := (N * ientry)%type.
Definition okey (p : orec) : bytes := ikey (snd p).
Definition osorted (l : list orec) : Prop := StronglySorted (fun a b : orec => fst a < fst b) l.

(* a seek from x finds the record of index rank l x (first_at_rank) *)
Definition rank (l : list orec) (x : N) : nat := plen (fun p => fst p <? x) l.

Lemma rank_cons q r x : rank (q :: r) x = if fst q <? x then S (rank r x) else O.
Proof. reflexivity. Qed.

Lemma rank_mono l x y : x <= y -> (rank l x <= rank l y)%nat.
Proof. intros H. apply plen_mono. intros p Hp. apply N.ltb_lt in Hp. apply N.ltb_lt. lia. Qed.

Lemma rank_none l x : Forall (fun p => x <= fst p) l -> rank l x = O.
Proof.
  intros H. destruct H as [|p r Hp _]; [reflexivity|].
  rewrite rank_cons, (proj2 (N.ltb_ge _ _) Hp). reflexivity.
Qed.

Lemma rank_all l x : Forall (fun p => fst p < x) l -> rank l x = length l.
Proof.
  induction 1 as [|p r Hp _ IH]; [reflexivity|].
  rewrite rank_cons, (proj2 (N.ltb_lt _ _) Hp), IH. reflexivity.
Qed.

Lemma rank_at l : osorted l -> forall i p, nth_error l i = Some p ->
  rank l (fst p) = i /\ rank l (fst p + 1) = S i.
Proof.
  induction l as [|q r IH]; intros Ho i p Hn; [destruct i; discriminate|].
  destruct (StronglySorted_inv Ho) as [Ho' Hh]. rewrite !rank_cons.
  destruct i as [|i]; cbn [nth_error] in Hn.
  - injection Hn as <-. rewrite N.ltb_irrefl, (proj2 (N.ltb_lt _ _)) by lia.
    split; [reflexivity|]. f_equal. apply rank_none. eapply Forall_impl; [|exact Hh]. intros a Ha. cbv beta in Ha. lia.
  - pose proof (proj1 (Forall_forall _ _) Hh p (nth_error_In _ _ Hn)) as Hlt. cbv beta in Hlt.
    rewrite !(proj2 (N.ltb_lt _ _)) by lia. destruct (IH Ho' i p Hn) as [-> ->]. split; reflexivity.
Qed.

Lemma rank_succ l x : osorted l -> (rank l (x + 1) <= S (rank l x))%nat.
Proof.
  induction l as [|q r IH]; intros Ho; [cbn; lia|].
  destruct (StronglySorted_inv Ho) as [Ho' Hh]. rewrite !rank_cons.
  destruct (fst q <? x) eqn:E.
  - apply N.ltb_lt in E. rewrite (proj2 (N.ltb_lt _ _)) by lia. specialize (IH Ho'). lia.
  - apply N.ltb_ge in E. destruct (fst q <? x + 1); [|lia].
    rewrite (rank_none r (x + 1)); [lia|]. eapply Forall_impl; [|exact Hh]. intros a Ha. cbv beta in Ha. lia.
Qed.

(* the least offset of rank k (k <= length l wherever it is used; the value for larger k does not
   matter) *)
Definition cut (l : list orec) (k : nat) : N :=
  match k with O => 0 | S k' => match nth_error l k' with Some p => fst p + 1 | None => 0 end end.

Lemma rank_cut l k : osorted l -> (k <= length l)%nat -> rank l (cut l k) = k.
Proof.
  intros Ho Hk. destruct k as [|k]; [apply rank_none, Forall_forall; intros p _; apply N.le_0_l|].
  cbn [cut]. destruct (nth_error l k) as [p|] eqn:E; [apply (rank_at l Ho k p E)|].
  apply nth_error_None in E. lia.
Qed.

Lemma cut_spec l k x : osorted l -> (k <= length l)%nat -> (k <= rank l x)%nat <-> cut l k <= x.
Proof.
  intros Ho Hk. split; intros H.
  - destruct k as [|k]; [apply N.le_0_l|]. cbn [cut].
    destruct (nth_error l k) as [p|] eqn:E; [|apply N.le_0_l].
    destruct (N.le_gt_cases (fst p + 1) x) as [|Hx]; [assumption|].
    pose proof (rank_mono l x (fst p) ltac:(lia)) as Hm. rewrite (proj1 (rank_at l Ho k p E)) in Hm. lia.
  - rewrite <- (rank_cut l k Ho Hk). apply rank_mono, H.
Qed.

(* the form of a record in SeekFacts *)
Definition oraw (p : orec) : N * option bytes := (fst p, Some (entry_pb (snd p))).

(* the width of the search interval is kept as j < i + w, without subtraction *)
Lemma mid i j w (h := (i + j) / 2) : i < j -> j < i + 2 * w -> (i <= h < j) /\ h < i + w /\ j < h + 1 + w.
Proof.
  intros H Hw. subst h. pose proof (N.div_mod' (i + j) 2) as Hd.
  pose proof (N.mod_lt (i + j) 2 ltac:(lia)) as Hm.
  generalize dependent ((i + j) / 2). generalize dependent ((i + j) mod 2). intros r Hr h Hd. lia.
Qed.

(* over a file whose seeks are described by recs, the disk index is the slice index over the
   entries, at the ranks of the offsets *)
Section Abs.
  Variables (c : codec) (sl : N) (f : bytes) (recs : list orec).
  Local Notation n := (lenN f).
  Local Notation es := (map snd recs).
  Hypothesis Hseek : forall off, off <= n ->
    seek_next c sl f off
    = match nth_error recs (rank recs off) with Some p => Ok (fst p, Some (entry_pb (snd p))) | None => Err EOF end.
  Hypothesis Hdec : forall p, In p recs -> pb_dec_index_entry (entry_pb (snd p)) = Ok (snd p).
  Hypothesis Hos : osorted recs.
  Hypothesis Hks : esorted es.
  Hypothesis Hbound : forall p, In p recs -> fst p < n.

  Lemma find_at_rank off : off <= n ->
    find_at c sl f off = match nth_error recs (rank recs off) with Some p => Ok (snd p) | None => Err EOF end.
  Proof.
    intros Ho. unfold find_at. rewrite (Hseek off Ho).
    destruct (nth_error recs (rank recs off)) as [p|] eqn:E; [|reflexivity].
    apply Hdec, (nth_error_In _ _ E).
  Qed.

  (* map_length would leave `length recs` at the type N * ientry, which lia takes for another atom *)
  Lemma len_es : length es = length recs.
  Proof. apply map_length. Qed.

  Lemma rank_n : rank recs n = length recs.
  Proof. apply rank_all, Forall_forall, Hbound. Qed.

  Lemma lb_le key : (lower_bound es key <= length recs)%nat.
  Proof. rewrite <- len_es. apply plen_le. Qed.

  Lemma cut_le_n k : cut recs k <= n.
  Proof.
    destruct k as [|k]; [apply N.le_0_l|]. cbn [cut].
    destruct (nth_error recs k) as [p|] eqn:E; [|apply N.le_0_l].
    pose proof (Hbound p (nth_error_In _ _ E)). lia.
  Qed.

  Lemma key_rank key i p : nth_error recs i = Some p ->
    bcmp (okey p) key = Lt <-> (i < lower_bound es key)%nat.
  Proof.
    intros H. pose proof (map_nth_error snd _ _ H) as H'.
    rewrite <- (below_bound es key i Hks) by (apply nth_error_Some; congruence).
    rewrite (nth_error_nth _ _ _ H'). unfold below, bltb, okey.
    destruct (bcmp (ikey (snd p)) key); split; congruence.
  Qed.

  Lemma bs_loop_rank key (L := cut recs (lower_bound es key)) : forall k i j,
    i <= L -> L <= j -> j <= n -> j < i + 2 ^ N.of_nat k ->
    disk_bs_loop (S k) c sl f key i j = Ok L.
  Proof.
    induction k as [|k IH]; intros i j Hi Hj Hjn Hw.
    - change (2 ^ N.of_nat 0) with 1 in Hw. cbn [disk_bs_loop].
      rewrite (proj2 (N.ltb_ge _ _)) by (clear - Hw; lia). f_equal. clear - Hi Hj Hw. lia.
    - cbn [disk_bs_loop]. destruct (i <? j) eqn:E; [|apply N.ltb_ge in E; f_equal; clear - Hi Hj E; lia].
      apply N.ltb_lt in E. cbv zeta.
      rewrite Nat2N.inj_succ, N.pow_succ_r' in Hw.
      destruct (mid i j _ E Hw) as ((Hh1 & Hh2) & Hw1 & Hw2).
      set (h := (i + j) / 2) in *. rewrite (find_at_rank h (N.le_trans _ _ _ (N.lt_le_incl _ _ Hh2) Hjn)).
      pose proof (cut_spec recs _ h Hos (lb_le key)) as Hc. fold L in Hc.
      assert (Hup : (lower_bound es key <= rank recs h)%nat -> disk_bs_loop (S k) c sl f key i h = Ok L).
      { intros Hr. apply (IH i h Hi); [apply Hc, Hr|exact (N.le_trans _ _ _ (N.lt_le_incl _ _ Hh2) Hjn)|exact Hw1]. }
      destruct (nth_error recs (rank recs h)) as [p|] eqn:En.
      + pose proof (key_rank key _ p En) as Hk. fold (okey p).
        assert (Hge : bcmp (okey p) key <> Lt -> (lower_bound es key <= rank recs h)%nat).
        { intros Hn. destruct (Nat.le_gt_cases (lower_bound es key) (rank recs h)) as [|Hg]; [assumption|].
          elim Hn. apply Hk, Hg. }
        destruct (bcmp (okey p) key); [apply Hup, Hge; discriminate| |apply Hup, Hge; discriminate].
        apply (IH (h + 1) j); [|exact Hj|exact Hjn|exact Hw2].
        destruct (N.le_gt_cases L h) as [Hl|Hl]; [|apply N.le_succ_l in Hl; rewrite N.add_1_r; exact Hl].
        apply Hc in Hl. elim (Nat.lt_irrefl _ (Nat.lt_le_trans _ _ _ (proj1 Hk eq_refl) Hl)).
      + apply Hup. apply nth_error_None in En. exact (Nat.le_trans _ _ _ (lb_le key) En).
  Qed.

  Lemma search_eq key (lb := lower_bound es key) :
    disk_search c sl f key
    = Ok (match nth_error recs lb with
          | Some p => (cut recs lb, Some (snd p), beqb (okey p) key)
          | None => (n, None, false)
          end).
  Proof.
    unfold disk_search. cbv zeta. rewrite bs_loop_rank; [|apply N.le_0_l|apply cut_le_n|apply N.le_refl|].
    - rewrite (find_at_rank _ (cut_le_n _)), (rank_cut recs _ Hos (lb_le key)). fold lb.
      destruct (nth_error recs lb) as [p|] eqn:E; [|reflexivity].
      assert (Hlt : cut recs lb < n).
      { apply N.le_lt_trans with (fst p); [|exact (Hbound p (nth_error_In _ _ E))].
        apply (cut_spec recs lb _ Hos (lb_le key)). rewrite (proj1 (rank_at recs Hos lb p E)). apply Nat.le_refl. }
      rewrite (proj2 (N.ltb_lt _ _) Hlt). reflexivity.
    - (* the fuel suffices: 2 ^ (log2 (n + 1) + 2) > n *)
      rewrite Nat2N.inj_add, N2Nat.id. change (N.of_nat 2) with 2.
      pose proof (N.log2_spec (n + 1) ltac:(lia)) as [_ Hs].
      rewrite N.pow_add_r. rewrite N.pow_succ_r' in Hs. change (2 ^ 2) with 4. lia.
  Qed.

  (* S (rank recs endo): the record a seek finds is delivered even when it starts behind endo *)
  Lemma disk_iter_rank endo : endo <= n -> forall fuel cur, (N.to_nat (n - cur) < fuel)%nat ->
    disk_iter fuel c sl f cur endo
    = Ok (if endo <? cur then [] else slice_iter es (rank recs cur) (S (rank recs endo))).
  Proof.
    intros He. induction fuel as [|k IH]; intros cur Hf; [lia|].
    cbn [disk_iter]. destruct (endo <? cur) eqn:E; [reflexivity|]. apply N.ltb_ge in E.
    rewrite (Hseek cur) by lia.
    destruct (nth_error recs (rank recs cur)) as [p|] eqn:En.
    - destruct (rank_at recs Hos _ p En) as [R1 R2].
      assert (Hcp : cur <= fst p).
      { destruct (N.le_gt_cases cur (fst p)) as [|Hg]; [assumption|].
        pose proof (rank_mono recs (fst p + 1) cur ltac:(lia)). lia. }
      pose proof (Hbound p (nth_error_In _ _ En)) as Hb.
      rewrite (Hdec p (nth_error_In _ _ En)), IH by lia. rewrite R2.
      pose proof (rank_mono recs cur endo E) as Hm.
      rewrite (slice_iter_cons es (snd p) _ (S (rank recs endo)) (map_nth_error snd _ _ En)) by lia.
      destruct (endo <? fst p + 1) eqn:E2; [|reflexivity].
      apply N.ltb_lt in E2. pose proof (rank_mono recs endo (fst p) ltac:(lia)) as Hm2.
      replace (rank recs endo) with (rank recs cur) by lia. unfold slice_iter. rewrite Nat.sub_diag. reflexivity.
    - apply nth_error_None in En. unfold slice_iter. rewrite skipn_all2 by (rewrite len_es; exact En).
      rewrite firstn_nil. reflexivity.
  Qed.

  Lemma disk_iter_ok cur endo : endo <= n ->
    disk_iter (S (length f)) c sl f cur endo
    = Ok (if endo <? cur then [] else slice_iter es (rank recs cur) (S (rank recs endo))).
  Proof. intros He. apply (disk_iter_rank endo He). unfold lenN. lia. Qed.

  Definition rec_entries : list ientry := es.

  Lemma disk_all : Forall (fun p => 8 <= fst p) recs ->
    disk_iter (S (length f)) c sl f 8 n = Ok rec_entries.
  Proof.
    intros Hlow. rewrite (disk_iter_ok 8 n (N.le_refl _)). unfold rec_entries.
    destruct (n <? 8) eqn:E.
    - apply N.ltb_lt in E. revert Hlow. generalize Hbound. generalize recs. intros [|p r] Hb Hlow; [reflexivity|].
      pose proof (Hb p (or_introl eq_refl)). pose proof (Forall_inv Hlow) as H8. cbv beta in H8. lia.
    - rewrite (rank_none recs 8 Hlow), rank_n. unfold slice_iter. cbn [skipn].
      f_equal. apply firstn_all2. rewrite len_es. lia.
  Qed.

  Lemma at_bound key (lb := lower_bound es key) :
    match nth_error recs lb with
    | Some p => Nat.ltb lb (length es) = true /\ nth lb es ([], 0, 0) = snd p
    | None => Nat.ltb lb (length es) = false
    end.
  Proof.
    destruct (nth_error recs lb) as [p|] eqn:E.
    - pose proof (map_nth_error snd _ _ E) as E'.
      split; [apply Nat.ltb_lt, nth_error_Some; congruence|exact (nth_error_nth _ _ _ E')].
    - apply Nat.ltb_ge. rewrite len_es. apply nth_error_None, E.
  Qed.

  Lemma disk_get key :
    match disk_search c sl f key with
    | Err e => Err e
    | Ok (_, Some e, true) => Ok (Some (ival e))
    | Ok _ => Ok None
    end = Ok (option_map ival (find (fun e => beqb (ikey e) key) rec_entries)).
  Proof.
    rewrite search_eq. unfold rec_entries. rewrite (find_sorted es key Hks).
    pose proof (at_bound key) as H. cbv zeta in H.
    destruct (nth_error recs (lower_bound es key)) as [p|]; [destruct H as [-> ->]|rewrite H; reflexivity].
    fold (okey p). cbn [andb]. destruct (beqb (okey p) key); reflexivity.
  Qed.

  Lemma search_ok key (lb := lower_bound es key) :
    exists s oe, disk_search c sl f key = Ok (s, oe, has_key es key)
      /\ s <= n /\ rank recs s = lb /\ (s = cut recs lb \/ lb = length recs).
  Proof.
    rewrite search_eq, (has_key_at_bound es key Hks). fold lb.
    pose proof (at_bound key) as H. cbv zeta in H. fold lb in H.
    destruct (nth_error recs lb) as [p|] eqn:E.
    - destruct H as [-> ->]. exists (cut recs lb), (Some (snd p)).
      split; [reflexivity|]. split; [apply cut_le_n|].
      split; [apply (rank_cut recs lb Hos (lb_le key))|left; reflexivity].
    - rewrite H. apply nth_error_None in E. pose proof (lb_le key) as Hl. fold lb in Hl. exists n, None.
      split; [reflexivity|]. split; [apply N.le_refl|]. split; [rewrite rank_n; lia|right; lia].
  Qed.

  Lemma disk_from key :
    match disk_search c sl f key with
    | Err e => Err e
    | Ok (off, _, _) => disk_iter (S (length f)) c sl f off n
    end = Ok (filter (fun e => negb (bltb (ikey e) key)) rec_entries).
  Proof.
    destruct (search_ok key) as (s & oe & -> & Hsn & Hr & _).
    rewrite (disk_iter_ok s n (N.le_refl _)).
    rewrite (proj2 (N.ltb_ge _ _) Hsn), Hr, rank_n, slice_iter_clip by (rewrite len_es; apply Nat.le_succ_diag_r).
    f_equal. apply (skipn_plen (below key) es), pmono_below, Hks.
  Qed.

  Definition disk_between (lo hi : bytes) : res (option (list ientry)) :=
    match disk_search c sl f lo with
    | Err e => Err e
    | Ok (s, _, _) =>
        match disk_search c sl f hi with
        | Err e => Err e
        | Ok (e, _, found) =>
            let fuel := S (length f) in
            if found then
              match disk_iter fuel c sl f s e with Ok l => Ok (Some l) | Err x => Err x end
            else if e =? 0 then Ok (Some [])
            else match disk_iter fuel c sl f s (e - 1) with Ok l => Ok (Some l) | Err x => Err x end
        end
    end.

  Lemma disk_between_ok lo hi : bcmp lo hi <> Gt ->
    disk_between lo hi = Ok (Some (filter (fun e => bleb lo (ikey e) && bleb (ikey e) hi) rec_entries)).
  Proof.
    intros Hab. unfold disk_between, rec_entries.
    destruct (search_ok lo) as (s & oe1 & -> & Hsn & Hrs & Hs).
    destruct (search_ok hi) as (e & oe2 & -> & Hen & Hre & He).
    rewrite <- (slice_window es lo hi Hks Hab), (plen_upto es hi Hks). cbv zeta.
    set (a := lower_bound es lo) in *. set (b := lower_bound es hi) in *.
    assert (Hab' : (a <= b)%nat).
    { apply plen_mono. intros x. unfold below, bltb. destruct (bcmp (ikey x) lo) eqn:C; try discriminate.
      intros _. rewrite (cmp_lt_le_trans bcmp bcmp_laws _ _ _ C Hab). reflexivity. }
    pose proof (lb_le hi) as Hbl. fold b in Hbl.
    destruct (has_key es hi) eqn:Ef.
    - (* the upper bound is present: it stands at index b < length, so both offsets are cuts *)
      assert (Hb : (b < length recs)%nat).
      { rewrite has_key_find, (find_sorted es hi Hks) in Ef. fold b in Ef. rewrite len_es in Ef.
        destruct (Nat.ltb_spec b (length recs)); [assumption|discriminate]. }
      destruct He as [->|He]; [|exfalso; clear - He Hb; lia].
      destruct Hs as [->|Hs]; [|exfalso; clear - Hs Hb Hab'; lia].
      rewrite (disk_iter_ok _ _ (cut_le_n b)).
      rewrite (proj2 (N.ltb_ge _ _)) by (apply (cut_spec recs a _ Hos (lb_le lo)); rewrite Hre; exact Hab').
      rewrite Hrs, Hre, Nat.add_1_r. reflexivity.
    - rewrite Nat.add_0_r. destruct (e =? 0) eqn:Ez.
      + apply N.eqb_eq in Ez. subst e.
        rewrite (rank_none recs 0) in Hre by (apply Forall_forall; intros p _; apply N.le_0_l).
        rewrite <- Hre. reflexivity.
      + apply N.eqb_neq in Ez.
        rewrite (disk_iter_ok s (e - 1) (N.le_trans _ _ _ (N.le_sub_l e 1) Hen)), Hrs.
        destruct (e - 1 <? s) eqn:Et.
        * (* the last record below hi starts before s: nothing lies between *)
          unfold slice_iter. rewrite (proj2 (Nat.sub_0_le b a)); [reflexivity|].
          rewrite <- Hre, <- Hrs. apply rank_mono. apply N.ltb_lt in Et. clear - Et Ez. lia.
        * clearbody b. destruct He as [->|He].
          -- destruct b as [|k]; [elim Ez; reflexivity|]. cbn [cut] in Ez |- *.
             destruct (nth_error recs k) as [p|] eqn:En; [|elim Ez; reflexivity].
             rewrite N.add_sub, (proj1 (rank_at recs Hos k p En)). reflexivity.
          -- pose proof (rank_succ recs (e - 1) Hos) as Hsu.
             rewrite N.sub_add, Hre, He in Hsu by (clear - Ez; lia).
             rewrite !slice_iter_clip; [reflexivity|rewrite len_es, He; apply Nat.le_refl|rewrite len_es; exact Hsu].
  Qed.
End Abs.

Lemma first_at_rank off l :
  first_at_or_after off (map oraw l) = option_map oraw (nth_error l (rank l off)).
Proof.
  induction l as [|q r IH]; [reflexivity|]. rewrite rank_cons, N.ltb_antisym. cbn [map first_at_or_after].
  unfold oraw at 1. cbn [fst]. destruct (off <=? fst q); [reflexivity|exact IH].
Qed.

Lemma osorted_map_split :
  forall pre l o r post, osorted l -> map oraw l = pre ++ (o, r) :: post ->
  Forall (fun p : N * option bytes => fst p < o) pre.
Proof.
  induction pre as [|x pre IH]; intros l o r post Ho Heq; [constructor|].
  destruct l as [|q l']; [discriminate|]. cbn [map app] in Heq. injection Heq as Hx Heq'.
  destruct (StronglySorted_inv Ho) as [Ho' Hh].
  constructor; [|exact (IH l' o r post Ho' Heq')].
  assert (Hin : In (o, r) (map oraw l')) by (rewrite Heq'; apply in_or_app; right; left; reflexivity).
  apply in_map_iff in Hin. destruct Hin as [p [Hp Hin]].
  rewrite Forall_forall in Hh. pose proof (Hh p Hin) as Hlt.
  subst x. unfold oraw in Hp. injection Hp as Ho1 _. unfold oraw. cbn [fst]. lia.
Qed.

Section Facts.
  Variables ci cd : codec.
  Hypothesis ci_ok : forall x, decomp ci (comp ci x) = Ok x.
  Hypothesis cd_ok : forall x, decomp cd (comp cd x) = Ok x.
  Hypothesis ci_type : ctype ci <= 3.
  Hypothesis cd_type : ctype cd <= 3.

  Fixpoint starts (c : codec) (recs : list (option bytes)) (off : N) : list N :=
    match recs with
    | [] => []
    | r :: rest => off :: starts c rest (off + lenN (enc_rec c r))
    end.

  Definition index_recs (kvs : tpairs) : list (option bytes) :=
    map (fun e => Some (pb_index_entry (fst (fst e)) (snd (fst e)) (snd e))) (entries_of cd kvs 8).

  (* the only acceptable positions of the index file are the starts of its records *)
  Definition no_embedded (kvs : tpairs) : Prop :=
    forall o, acceptable ci (tf_index (write_table ci cd kvs)) o = true -> In o (starts ci (index_recs kvs) 8).

  Fixpoint orecs (es : list ientry) (off : N) : list orec :=
    match es with
    | [] => []
    | e :: r => (off, e) :: orecs r (off + lenN (ienc ci e))
    end.

  Lemma map_snd_orecs es : forall off, map snd (orecs es off) = es.
  Proof. induction es as [|e r IH]; intros off; [reflexivity|]. cbn [orecs map snd]. rewrite IH. reflexivity. Qed.

  Lemma map_fst_orecs es : forall off,
    map fst (orecs es off) = starts ci (map (fun e => Some (entry_pb e)) es) off.
  Proof.
    induction es as [|e r IH]; intros off; [reflexivity|]. cbn [orecs map fst starts].
    rewrite IH. reflexivity.
  Qed.

  Lemma orecs_low es : forall off, Forall (fun p => off <= fst p) (orecs es off).
  Proof.
    induction es as [|e r IH]; intros off; [constructor|]. cbn [orecs].
    constructor; [cbn [fst]; lia|].
    eapply Forall_impl; [|apply IH]. intros p Hp. cbv beta in Hp. lia.
  Qed.

  Lemma orecs_osorted es : forall off, osorted (orecs es off).
  Proof.
    induction es as [|e r IH]; intros off; [constructor|]. cbn [orecs].
    constructor; [apply IH|].
    pose proof (enc_rec_pos ci (Some (entry_pb e))) as Hpos.
    change (enc_rec ci (Some (entry_pb e))) with (ienc ci e) in Hpos.
    eapply Forall_impl; [|apply orecs_low]. intros p Hp. cbv beta in Hp. cbn [fst]. lia.
  Qed.

  Lemma orecs_offs es : forall off,
    map oraw (orecs es off) = offs ci off (map (fun e => Some (entry_pb e)) es).
  Proof.
    induction es as [|e r IH]; intros off; [reflexivity|]. cbn [orecs map offs fst snd]. f_equal. apply IH.
  Qed.

  Lemma ienc_encs es : flat_map (ienc ci) es = encs ci (map (fun e => Some (entry_pb e)) es).
  Proof. unfold encs. rewrite flat_map_map. reflexivity. Qed.

  Lemma marker_at_hdr pre u cs b rest : marker_at (pre ++ hdr u cs b ++ rest) (lenN pre) = true.
  Proof.
    unfold marker_at. apply bytes_eqb_eq. rewrite sub_app_short.
    change (N.to_nat 3) with 3%nat. rewrite firstn_app.
    pose proof (hdr_length u cs b) as Hl.
    replace (3 - length (hdr u cs b))%nat with 0%nat by lia.
    change (firstn 0 rest) with (@nil N). rewrite app_nil_r. apply hdr_starts_with_marker.
  Qed.

  Lemma marker_at_rec pre r rest : size_ok ci r ->
    marker_at (pre ++ enc_rec ci r ++ rest) (lenN pre) = true.
  Proof. intros _. rewrite enc_rec_eq, <- app_assoc. apply marker_at_hdr. Qed.

  Lemma record_reads es p : Forall (entry_ok ci) es -> In p (orecs es 8) ->
    let f := file_hdr (ctype ci) ++ flat_map (ienc ci) es in
    marker_at f (fst p) = true /\ read_at ci f (fst p) = Ok (Some (entry_pb (snd p)))
    /\ pb_dec_index_entry (entry_pb (snd p)) = Ok (snd p).
  Proof.
    intros Hok Hin f.
    assert (He : entry_ok ci (snd p)).
    { rewrite Forall_forall in Hok. apply Hok. rewrite <- (map_snd_orecs es 8). exact (in_map snd _ _ Hin). }
    assert (Hw : Forall (size_ok ci) (map (fun e => Some (entry_pb e)) es)).
    { apply Forall_map. eapply Forall_impl; [|exact Hok]. intros e H. apply H. }
    apply (in_map oraw) in Hin. rewrite orecs_offs in Hin.
    change 8 with (lenN (file_hdr (ctype ci))) in Hin.
    subst f. rewrite ienc_encs.
    split; [|split; [exact (read_at_offs ci ci_ok _ _ _ _ Hw Hin)|apply He]].
    destruct (offs_in ci _ _ _ _ Hin) as (pre & post & -> & ->).
    rewrite encs_app, encs_cons, <- lenN_app, app_assoc. apply marker_at_rec, He.
  Qed.

  Section Table.
    Variables (sl : N) (kvs : tpairs).
    Hypothesis Hsl : 4 <= sl.
    Hypothesis Hs : psorted kvs.
    Hypothesis Hp : Forall (pair_ok ci cd) kvs.
    Hypothesis Hv : Forall val_ok kvs.
    Hypothesis Hf : file_ok cd kvs.
    Hypothesis Hne : no_embedded kvs.

    Let ents := entries_of cd kvs 8.
    Let recs := orecs ents 8.
    Let f := ifile ci cd kvs.

    Lemma ents_ok : Forall (entry_ok ci) ents.
    Proof. apply (entries_ok ci cd ci_type cd_type); assumption. Qed.

    Lemma t_bound : forall p, In p recs -> fst p < lenN f.
    Proof.
      intros p Hin. destruct (record_reads ents p ents_ok Hin) as (Hm & Hrd & _).
      apply N.lt_le_trans with (fst p + 4); [lia|exact (acceptable_bound _ _ _ (acceptable_intro _ _ _ _ Hm Hrd))].
    Qed.

    Lemma t_decodes : forall p, In p recs -> pb_dec_index_entry (entry_pb (snd p)) = Ok (snd p).
    Proof. intros p Hin. apply (record_reads ents p ents_ok Hin). Qed.

    Lemma t_osorted : osorted recs.
    Proof. apply orecs_osorted. Qed.

    Lemma t_seek : forall off, off <= lenN f ->
      seek_next ci sl f off
      = match nth_error recs (rank recs off) with Some p => Ok (fst p, Some (entry_pb (snd p))) | None => Err EOF end.
    Proof.
      intros off Hoff.
      rewrite (seek_next_written ci sl f (map oraw recs) off Hsl Hoff).
      - rewrite first_at_rank. destruct (nth_error recs (rank recs off)); reflexivity.
      - intros pre o r post Heq. exact (osorted_map_split pre recs o r post t_osorted Heq).
      - intros o r Hin. apply in_map_iff in Hin. destruct Hin as [p [Hpe Hin]].
        unfold oraw in Hpe. injection Hpe as Ho Hr. subst o r.
        destruct (record_reads ents p ents_ok Hin) as (Hm & Hrd & _).
        split; [exact (acceptable_intro _ _ _ _ Hm Hrd)|exact Hrd].
      - intros o Hacc. rewrite map_map. unfold oraw. cbn [fst].
        change (map (fun x : orec => fst x) recs) with (map fst recs).
        unfold recs. rewrite map_fst_orecs. apply Hne.
        destruct (written_files ci cd kvs Hs) as [_ ->]. exact Hacc.
    Qed.

    Let bloom := fun k => existsb (bytes_eqb k) (tf_bloom (write_table ci cd kvs)).
    Let rdr := mkReader (LDisk sl) ci cd f [] (dfile cd kvs) bloom false.

    Lemma t_addresses : Forall2 (addresses rdr) ents kvs.
    Proof. exact (addresses_dfile ci cd cd_ok rdr kvs eq_refl eq_refl Hp). Qed.

    Lemma t_esorted : esorted (map snd recs).
    Proof. unfold recs. rewrite map_snd_orecs. exact (entries_sorted cd kvs Hs). Qed.

    Lemma t_entries : rec_entries recs = ents.
    Proof. apply map_snd_orecs. Qed.

    Lemma t_idx : idx_spec (fun _ => True) rdr ents.
    Proof.
      unfold idx_spec, idx_all, idx_get, idx_from, idx_between. cbn [rdr r_loader r_ci r_index_file].
      rewrite <- t_entries.
      split; [exact (disk_all ci sl f recs t_seek t_decodes t_osorted t_bound (orecs_low _ _))|].
      split; [intros k _; exact (disk_get ci sl f recs t_seek t_decodes t_osorted t_esorted t_bound k)|].
      split; [exact (disk_from ci sl f recs t_seek t_decodes t_osorted t_esorted t_bound)|].
      split; intros a b Hab; [|rewrite Hab; reflexivity].
      pose proof (disk_between_ok ci sl f recs t_seek t_decodes t_osorted t_esorted t_bound a b Hab) as H.
      destruct (bcmp a b); [exact H|exact H|congruence].
    Qed.

    Lemma t_open : open_table (LDisk sl) (write_table ci cd kvs) ci cd = Ok rdr.
    Proof.
      rewrite (open_table_eq ci cd (LDisk sl) kvs Hs). unfold open_reader.
      unfold ifile at 1. rewrite (parse_file_hdr_ok (ctype ci) _ ci_type).
      rewrite (parse_dfile cd cd_type kvs). fold f. fold bloom. fold rdr.
      rewrite (proj1 t_idx), (validate_addresses _ _ _ t_addresses). reflexivity.
    Qed.

    Lemma t_behaves : behaves_as_sorted_map rdr kvs.
    Proof.
      exact (behaves_all _ _ (idx_behaves ci cd cd_ok cd_type _ rdr kvs eq_refl eq_refl Hp
                                (bloom_in ci cd kvs Hs) t_idx)).
    Qed.
  End Table.

  Theorem table_is_sorted_map_disk (sl : N) (kvs : tpairs) :
    4 <= sl ->
    psorted kvs -> Forall (pair_ok ci cd) kvs -> Forall val_ok kvs -> file_ok cd kvs ->
    no_embedded kvs ->
    exists r, open_table (LDisk sl) (write_table ci cd kvs) ci cd = Ok r /\ behaves_as_sorted_map r kvs.
  Proof.
    intros Hsl Hs Hp Hv Hf Hne. eexists. split.
    - exact (t_open sl kvs Hsl Hs Hp Hv Hf Hne).
    - exact (t_behaves sl kvs Hsl Hs Hp Hv Hf Hne).
  Qed.
End Facts.

(* every index operation reaches the file through seek_next only *)
Section Window.
  Variables (c : codec) (s1 s2 : N) (f : bytes).
  Hypotheses (H1 : 4 <= s1) (H2 : 4 <= s2).

  Lemma disk_search_window key : disk_search c s1 f key = disk_search c s2 f key.
  Proof.
    assert (Hf : forall off, find_at c s1 f off = find_at c s2 f off).
    { intros off. unfold find_at. rewrite (seek_next_window c s1 s2 f off H1 H2). reflexivity. }
    assert (Hl : forall fuel i j, disk_bs_loop fuel c s1 f key i j = disk_bs_loop fuel c s2 f key i j).
    { induction fuel as [|k IH]; intros i j; [reflexivity|].
      cbn [disk_bs_loop]. cbv zeta. rewrite Hf, !IH. reflexivity. }
    unfold disk_search. cbv zeta. rewrite Hl.
    destruct (disk_bs_loop _ c s2 f key 0 (lenN f)) as [i|e]; [rewrite Hf|]; reflexivity.
  Qed.

  Lemma disk_iter_window fuel : forall cur endo,
    disk_iter fuel c s1 f cur endo = disk_iter fuel c s2 f cur endo.
  Proof.
    induction fuel as [|k IH]; intros cur endo; [reflexivity|].
    cbn [disk_iter]. rewrite (seek_next_window c s1 s2 f cur H1 H2).
    destruct (seek_next c s2 f cur) as [[o r]|e]; [rewrite IH|]; reflexivity.
  Qed.

End Window.

Lemma open_table_window s1 s2 ci cd t r1 : 4 <= s1 -> 4 <= s2 ->
  open_table (LDisk s1) t ci cd = Ok r1 ->
  exists r2, open_table (LDisk s2) t ci cd = Ok r2
    /\ (forall k, rd_contains r2 k = rd_contains r1 k) /\ (forall k, rd_get r2 k = rd_get r1 k)
    /\ rd_scan r2 = rd_scan r1.
Proof.
    intros H1 H2. unfold open_table, open_reader.
    destruct (parse_file_hdr (tf_index t)); [|discriminate].
    destruct (parse_file_hdr (tf_data t)); [|discriminate].
    set (bl := fun k => existsb (bytes_eqb k) (tf_bloom t)).
    set (q1 := mkReader (LDisk s1) ci cd (tf_index t) [] (tf_data t) bl false).
    set (q2 := mkReader (LDisk s2) ci cd (tf_index t) [] (tf_data t) bl false).
    assert (Ha : idx_all q2 = idx_all q1) by (symmetry; apply disk_iter_window; assumption).
    assert (Hg : forall k, idx_get q2 k = idx_get q1 k).
    { intros k. unfold idx_get. cbn. rewrite (disk_search_window ci s1 s2) by assumption. reflexivity. }
    assert (Hv : forall es, validate_all q2 es = validate_all q1 es).
    { induction es as [|e es IH]; [reflexivity|]. cbn [validate_all]. rewrite IH. reflexivity. }
    assert (Hs : forall es pos, scan_full q2 es pos = scan_full q1 es pos).
    { induction es as [|e es IH]; intros pos; [reflexivity|]. cbn [scan_full].
      change (r_cd q2) with (r_cd q1). change (r_data q2) with (r_data q1).
      destruct (read_next (r_cd q1) (r_data q1) pos) as [[v|x] pos']; [rewrite IH|]; reflexivity. }
    rewrite Ha. destruct (idx_all q1) as [all|] eqn:Ea; [|discriminate]. rewrite Hv.
    destruct (validate_all q1 all); [|discriminate]. intros H. injection H as <-.
    exists q2. split; [reflexivity|]. split; [|split].
    - intros k. unfold rd_contains. rewrite Hg. reflexivity.
    - intros k. unfold rd_get. rewrite Hg. reflexivity.
    - unfold rd_scan. rewrite Ha, Ea. change (r_data q2) with (r_data q1).
      destruct (r_open (r_data q1)); [apply Hs|reflexivity].
Qed.

(* every acceptable position lies in the file, so a sweep over its offsets finds them all *)
Lemma acceptable_sweep c f n l : lenN f <= N.of_nat n ->
  filter (acceptable c f) (map N.of_nat (seq 0 n)) = l -> forall o, acceptable c f o = true -> In o l.
Proof.
  intros Hn <- o Ha. apply filter_In. split; [|exact Ha]. apply acceptable_bound in Ha.
  rewrite <- (N2Nat.id o). apply in_map, in_seq. lia.
Qed.

(* the last key ends with the first marker byte and the last value is a
   marker followed by 0, yet no position inside a record is acceptable *)
Example disk_example :
  let kvs : tpairs := [([], Some [1]); ([0x61], None); ([0x61; 0], Some []); ([0x7a; 0x7a; 0x91], Some [0x91; 0x8d; 0x4c; 0])] in
  match open_table (LDisk 4) (write_table id_codec id_codec kvs) id_codec id_codec with
  | Ok r => rd_scan r = (kvs, None)
            /\ rd_get r [0x61] = Ok None /\ rd_get r [0x62] = Err NotFound /\ rd_get r [] = Ok (Some [1])
            /\ rd_scan_range r [] [0x60] = Some ([([], Some [1])], None)
            /\ rd_scan_range r [0x62] [0x63] = Some ([], None)
  | Err _ => False
  end.
Proof.
  intros kvs.
  destruct (table_is_sorted_map_disk id_codec id_codec (fun _ => eq_refl) (fun _ => eq_refl)
              ltac:(discriminate) ltac:(discriminate) 4 kvs) as (r & -> & _ & Hg & Hs & _ & Hr & _).
  - discriminate.
  - repeat (apply SSorted_cons || apply SSorted_nil || apply Forall_cons || apply Forall_nil); reflexivity.
  - repeat (apply Forall_cons || apply Forall_nil); apply id_pair_ok; reflexivity.
  - repeat (apply Forall_cons || apply Forall_nil); unfold val_ok; cbn [snd payload_of];
      repeat (apply Forall_cons || apply Forall_nil); reflexivity.
  - vm_compute. reflexivity.
  - intros o. apply (acceptable_sweep _ _ 128); vm_compute; [discriminate|reflexivity].
  - rewrite Hs, !Hg, !Hr by discriminate. vm_compute. repeat split; reflexivity.
Qed.

(* F-C03d: without [no_embedded] the disk-index theorem is false.  Witness: uncompressed files, the
   keys "a", "b" ++ IMAGE', "c", "d", where IMAGE' is the record image, as it stands in an index
   file, of the entry (key "zzzz", value offset 8, checksum 0).  Position 48, inside the key of the
   second index record, is acceptable; the table opens (offset 8 is a valid data record and checksum 0
   is not verified), but "c" is reported absent, Get "c" fails with NotFound, and the full scan
   delivers the unwritten key "zzzz" and ends with an error.  (The prime: SeekFacts has an emb_image
   of its own.) *)
Definition emb_zkey : bytes := [0x7a; 0x7a; 0x7a; 0x7a].                       (* "zzzz" *)
Definition emb_image' : bytes := ienc id_codec (emb_zkey, 8, 0).
Definition emb_bkey : bytes := [0x62] ++ emb_image'.
Definition emb_kvs : tpairs :=
  [([0x61], Some [1]); (emb_bkey, Some [2]); ([0x63], Some [3]); ([0x64], Some [4])].

Example emb_image'_bytes :
  emb_image' = [0x91; 0x8d; 0x4c; 0; 8; 0; 0xe0; 0xa3; 0xed; 0xe2; 0x0a;
                0x0a; 4; 0x7a; 0x7a; 0x7a; 0x7a; 0x10; 8].
Proof. vm_compute. reflexivity. Qed.

Definition emb_files : TableWriter.table_files := Eval vm_compute in write_table id_codec id_codec emb_kvs.

Lemma emb_files_eq : write_table id_codec id_codec emb_kvs = emb_files.
Proof. vm_compute. reflexivity. Qed.

Example emb_index_positions :
  starts id_codec (index_recs id_codec emb_kvs) 8 = [8; 34; 79; 105]
  /\ lenN (tf_index (write_table id_codec id_codec emb_kvs)) = 131
  /\ filter (acceptable id_codec (tf_index (write_table id_codec id_codec emb_kvs))) (map N.of_nat (seq 0 132))
     = [8; 34; 48; 79; 105].
Proof. rewrite emb_files_eq. vm_compute. repeat split; reflexivity. Qed.

Definition emb_reader : reader :=
  mkReader (LDisk 16) id_codec id_codec (tf_index emb_files) [] (tf_data emb_files)
    (fun k => existsb (bytes_eqb k) (tf_bloom emb_files)) false.

Lemma emb_open : open_table (LDisk 16) (write_table id_codec id_codec emb_kvs) id_codec id_codec = Ok emb_reader.
Proof. rewrite emb_files_eq. vm_compute. reflexivity. Qed.

Definition emb_wrong (r : reader) : Prop :=
  rd_contains r [0x63] = Ok false /\ rd_get r [0x63] = Err NotFound
  /\ rd_contains r [0x61] = Ok true /\ rd_contains r emb_bkey = Ok true /\ rd_contains r [0x64] = Ok true
  /\ rd_contains r emb_zkey = Ok false
  /\ rd_scan r = ([([0x61], Some [1]); (emb_bkey, Some [2]); (emb_zkey, Some [3]); ([0x63], Some [4])], Some EOF).

Lemma emb_reader_answers : emb_wrong emb_reader.
Proof.
  (* the search for "c" serves Contains and Get *)
  assert (Hc : idx_get emb_reader [0x63] = Ok None) by (vm_compute; reflexivity).
  unfold emb_wrong, rd_get, rd_contains at 1. rewrite Hc. vm_compute. repeat split; reflexivity.
Qed.

Lemma disk_index_embedded_any_window sl : 4 <= sl ->
  match open_table (LDisk sl) (write_table id_codec id_codec emb_kvs) id_codec id_codec with
  | Ok r => emb_wrong r
  | Err _ => False
  end.
Proof.
  intros Hsl.
  destruct (open_table_window 16 sl _ _ _ _ ltac:(discriminate) Hsl emb_open) as (r & -> & Hc & Hg & Hs).
  unfold emb_wrong. rewrite !Hc, Hg, Hs. exact emb_reader_answers.
Qed.

Example disk_index_embedded_answers :
  Forall (fun sl =>
    match open_table (LDisk sl) (write_table id_codec id_codec emb_kvs) id_codec id_codec with
    | Ok r =>
        rd_contains r [0x63] = Ok false /\ rd_get r [0x63] = Err NotFound
        /\ rd_contains r [0x61] = Ok true /\ rd_contains r emb_bkey = Ok true /\ rd_contains r [0x64] = Ok true
        /\ rd_contains r emb_zkey = Ok false
        /\ rd_scan r = ([([0x61], Some [1]); (emb_bkey, Some [2]); (emb_zkey, Some [3]); ([0x63], Some [4])], Some EOF)
    | Err _ => False
    end) [4; 16; 4096].
Proof.
  apply Forall_cons; [|apply Forall_cons; [|apply Forall_cons; [|apply Forall_nil]]];
    apply disk_index_embedded_any_window; discriminate.
Qed.

Theorem disk_index_embedded_refuted :
  exists (ci cd : codec) (sl : N) (kvs : tpairs),
    (forall x, decomp ci (comp ci x) = Ok x) /\ (forall x, decomp cd (comp cd x) = Ok x)
    /\ ctype ci <= 3 /\ ctype cd <= 3
    /\ 4 <= sl
    /\ psorted kvs /\ Forall (pair_ok ci cd) kvs /\ Forall val_ok kvs /\ file_ok cd kvs
    /\ ~ no_embedded ci cd kvs
    /\ (exists r, open_table (LDisk sl) (write_table ci cd kvs) ci cd = Ok r)
    /\ (forall r, open_table (LDisk sl) (write_table ci cd kvs) ci cd = Ok r -> ~ behaves_as_sorted_map r kvs).
Proof.
  exists id_codec, id_codec, 4, emb_kvs.
  split; [intros x; reflexivity|]. split; [intros x; reflexivity|].
  split; [vm_compute; discriminate|]. split; [vm_compute; discriminate|].
  split; [vm_compute; discriminate|].
  split.
  { unfold psorted, emb_kvs.
    repeat (apply SSorted_cons || apply SSorted_nil || apply Forall_cons || apply Forall_nil);
      vm_compute; reflexivity. }
  split.
  { unfold emb_kvs. repeat (apply Forall_cons || apply Forall_nil); apply id_pair_ok; reflexivity. }
  split.
  { unfold emb_kvs, val_ok. cbn [snd payload_of].
    repeat (apply Forall_cons || apply Forall_nil); vm_compute; reflexivity. }
  split; [vm_compute; reflexivity|].
  split.
  { (* position 48 is acceptable and is not the start of a record *)
    destruct emb_index_positions as (Hst & _ & Hacc). intros Hne.
    assert (Ha : In 48 [8; 34; 48; 79; 105]) by (cbn; auto).
    rewrite <- Hacc in Ha. apply (proj1 (filter_In _ _ _)), proj2, Hne in Ha. rewrite Hst in Ha.
    destruct Ha as [H|[H|[H|[H|[]]]]]; discriminate H. }
  (* the written key "c" is reported absent *)
  pose proof (disk_index_embedded_any_window 4 ltac:(discriminate)) as A.
  destruct (open_table (LDisk 4) (write_table id_codec id_codec emb_kvs) id_codec id_codec) as [r|e];
    [|contradiction].
  split; [exists r; reflexivity|].
  intros r' Hr [Hc _]. injection Hr as <-. specialize (Hc [0x63]).
  rewrite (proj1 A) in Hc. discriminate Hc.
Qed.

Print Assumptions table_is_sorted_map_disk.
Print Assumptions disk_example.
Print Assumptions disk_index_embedded_refuted.
