(* C08, stacked reader: newest-first point reads equal the latest-wins union, given readers that
   answer like their tables (C03 provides that for written tables). *)
From GoSST Require Import Base.Bytes Base.ListFacts SST.TableReader SST.MergeFacts SST.Super.
Local Open Scope N_scope.

Definition tget_res (t : table) (k : bytes) : res (option bytes) :=
  match t_get k t with Some v => Ok v | None => Err NotFound end.

Lemma super_get_rev_spec rs ts k :
  Forall2 (fun r t => rd_get r k = tget_res t k) rs ts ->
  super_get_rev rs k = match newest_value k ts with Some v => Ok v | None => Err NotFound end.
Proof.
  induction 1 as [|r t rs ts H H2 IH]; cbn [super_get_rev newest_value]; [reflexivity|].
  rewrite H. unfold tget_res. destruct (t_get k t) as [v|]; [reflexivity|exact IH].
Qed.

Theorem super_get_spec rs (tables : list table) k :
  Forall tsorted tables ->
  Forall2 (fun r t => rd_get r k = tget_res t k) rs tables ->
  super_get rs k = tget_res (union_latest tables) k.
Proof.
  intros Hs H. unfold super_get, tget_res.
  rewrite (super_get_rev_spec (rev rs) (rev tables) k (Forall2_rev _ _ _ H)).
  rewrite union_latest_get by exact Hs. reflexivity.
Qed.

Lemma super_contains_rev_spec rs ts k :
  Forall2 (fun r t => rd_contains r k = Ok (match t_get k t with Some _ => true | None => false end)) rs ts ->
  super_contains_rev rs k = Ok (match newest_value k ts with Some _ => true | None => false end).
Proof.
  induction 1 as [|r t rs ts H H2 IH]; cbn [super_contains_rev newest_value]; [reflexivity|].
  rewrite H. destruct (t_get k t) as [v|]; [reflexivity|exact IH].
Qed.

Theorem super_contains_spec rs (tables : list table) k :
  Forall tsorted tables ->
  Forall2 (fun r t => rd_contains r k = Ok (match t_get k t with Some _ => true | None => false end)) rs tables ->
  super_contains rs k = Ok (match t_get k (union_latest tables) with Some _ => true | None => false end).
Proof.
  intros Hs H. unfold super_contains.
  rewrite (super_contains_rev_spec (rev rs) (rev tables) k (Forall2_rev _ _ _ H)).
  rewrite union_latest_get by exact Hs. reflexivity.
Qed.

Theorem super_scan_spec rs (tables : list table) :
  Forall tsorted tables ->
  Forall2 (fun r t => rd_scan r = (t, None)) rs tables ->
  super_scan rs = (live (union_latest tables), None).
Proof.
  intros Hs H. unfold super_scan.
  assert (E : map (fun r => to_stream (rd_scan r)) rs = map as_stream tables).
  { clear Hs. induction H as [|r t rs ts Hr H2 IH]; cbn [map]; [reflexivity|].
    rewrite Hr, IH. unfold to_stream, as_stream. simpl fst. simpl snd. cbv iota. rewrite app_nil_r. reflexivity. }
  rewrite E. apply merge_compact_latest_wins. exact Hs.
Qed.

Print Assumptions super_get_spec.
Print Assumptions super_scan_spec.
