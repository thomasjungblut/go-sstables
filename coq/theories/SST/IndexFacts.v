(* The in-memory key indexes over a sorted entry list: binary search and its users. *)
From GoSST Require Import Base.Bytes Base.Order Base.ListFacts SST.Index.
From Coq Require Import Lia Sorting.Sorted.
Local Open Scope N_scope.

(* A predicate that holds on a prefix of a list and nowhere behind it: the length of that
   prefix is where a binary search ends, and cutting there is filtering *)
Section Prefix.
  Context {A : Type}.
  Implicit Types (p : A -> bool) (l : list A).

  Fixpoint plen p l : nat :=
    match l with [] => O | x :: r => if p x then S (plen p r) else O end.

  Definition pmono p l : Prop := StronglySorted (fun a b => p b = true -> p a = true) l.

  Lemma plen_le p l : (plen p l <= length l)%nat.
  Proof. induction l as [|x r IH]; simpl; [|destruct (p x)]; lia. Qed.

  Lemma plen_mono p q l : (forall a, p a = true -> q a = true) -> (plen p l <= plen q l)%nat.
  Proof.
    intros H. induction l as [|x r IH]; simpl; [lia|]. destruct (p x) eqn:E; [|lia].
    rewrite (H x E). lia.
  Qed.

  Lemma pmono_all_false p x r : pmono p (x :: r) -> p x = false ->
    Forall (fun b => p b = false) (x :: r).
  Proof.
    intros Hm Hx. apply StronglySorted_inv in Hm. constructor; [exact Hx|].
    eapply Forall_impl; [|apply Hm]. intros b Hb. simpl in Hb.
    destruct (p b); [|reflexivity]. rewrite Hb in Hx; [discriminate|reflexivity].
  Qed.

  Lemma plen_nth p l d : pmono p l ->
    forall n, (n < length l)%nat -> p (nth n l d) = true <-> (n < plen p l)%nat.
  Proof.
    induction l as [|x r IH]; intros Hm n Hn; simpl in Hn; [lia|]. cbn [plen].
    destruct (p x) eqn:E.
    - destruct n as [|n]; simpl; [rewrite E; split; [lia|reflexivity]|].
      rewrite (IH (proj1 (StronglySorted_inv Hm))); lia.
    - pose proof (pmono_all_false p x r Hm E) as HF. rewrite Forall_forall in HF.
      rewrite (HF (nth n (x :: r) d)) by (apply nth_In; simpl; lia). split; [discriminate|lia].
  Qed.

  Lemma firstn_plen p l : pmono p l -> firstn (plen p l) l = filter p l.
  Proof.
    induction l as [|x r IH]; intros Hm; simpl; [reflexivity|].
    destruct (p x) eqn:E; simpl.
    - f_equal. apply IH, (proj1 (StronglySorted_inv Hm)).
    - symmetry. apply filter_all_false, Forall_inv_tail with (a := x), pmono_all_false; assumption.
  Qed.

  Lemma skipn_plen p l : pmono p l -> skipn (plen p l) l = filter (fun x => negb (p x)) l.
  Proof.
    induction l as [|x r IH]; intros Hm; simpl; [reflexivity|].
    destruct (p x) eqn:E; simpl.
    - apply IH, (proj1 (StronglySorted_inv Hm)).
    - f_equal. symmetry. apply filter_all_true.
      eapply Forall_impl; [|apply Forall_inv_tail with (a := x), pmono_all_false; eassumption].
      intros b Hb. simpl in Hb. rewrite Hb. reflexivity.
  Qed.

  Lemma window_plen p1 p2 l : pmono p1 l -> pmono p2 l ->
    (forall x, p1 x = true -> p2 x = true) ->
    firstn (plen p2 l - plen p1 l) (skipn (plen p1 l) l)
    = filter (fun x => negb (p1 x) && p2 x) l.
  Proof.
    intros Hm1 Hm2 Hsub. induction l as [|x r IH]; [reflexivity|].
    destruct (p1 x) eqn:E1.
    - simpl. rewrite E1, (Hsub x E1). simpl. apply IH; [apply (StronglySorted_inv Hm1)|apply (StronglySorted_inv Hm2)].
    - replace (plen p1 (x :: r)) with O by (simpl; rewrite E1; reflexivity).
      rewrite Nat.sub_0_r. change (skipn 0 (x :: r)) with (x :: r). rewrite (firstn_plen p2 _ Hm2).
      pose proof (pmono_all_false p1 x r Hm1 E1) as HF. rewrite Forall_forall in HF.
      apply filter_ext_in. intros a Ha. rewrite (HF a Ha). reflexivity.
  Qed.
End Prefix.

Definition esorted (es : list ientry) : Prop :=
  StronglySorted (fun a b => bcmp (ikey a) (ikey b) = Lt) es.

Definition has_key (es : list ientry) (key : bytes) : bool := existsb (fun e => beqb (ikey e) key) es.

Local Notation d0 := ([], 0, 0).

Definition below (key : bytes) (e : ientry) : bool := bltb (ikey e) key.
Definition upto (key : bytes) (e : ientry) : bool := bleb (ikey e) key.

Definition lower_bound (es : list ientry) (key : bytes) : nat := plen (below key) es.

Lemma pmono_below key es : esorted es -> pmono (below key) es.
Proof.
  apply StronglySorted_weaken. intros a b Hab. unfold below, bltb.
  destruct (bcmp (ikey b) key) eqn:E; try discriminate. intros _.
  rewrite (bcmp_trans _ _ _ Hab E). reflexivity.
Qed.

Lemma pmono_upto key es : esorted es -> pmono (upto key) es.
Proof.
  apply StronglySorted_weaken. intros a b Hab. unfold upto, bleb.
  destruct (bcmp (ikey b) key) eqn:E; try discriminate; intros _;
    rewrite (cmp_lt_le_trans bcmp bcmp_laws _ _ _ Hab); congruence.
Qed.

Lemma below_bound es key n : esorted es -> (n < length es)%nat ->
  below key (nth n es d0) = true <-> (n < lower_bound es key)%nat.
Proof. intros Hs. apply plen_nth, pmono_below, Hs. Qed.

Lemma slice_iter_clip (es : list ientry) a b : (length es <= b)%nat -> slice_iter es a b = skipn a es.
Proof. intros H. apply firstn_all2. rewrite skipn_length. lia. Qed.

Lemma slice_iter_cons (es : list ientry) x : forall a b, nth_error es a = Some x -> (a < b)%nat ->
  slice_iter es a b = x :: slice_iter es (S a) b.
Proof.
  unfold slice_iter. induction es as [|y l IH]; intros a b Hn Hab; [destruct a; discriminate|].
  destruct a as [|a]; cbn [nth_error] in Hn.
  - injection Hn as ->. destruct b as [|b]; [lia|]. cbn [skipn Nat.sub firstn]. rewrite Nat.sub_0_r. reflexivity.
  - destruct b as [|b]; [lia|]. cbn [skipn Nat.sub]. apply IH; [exact Hn|lia].
Qed.

Lemma div2_mid i j : (i < j)%nat -> (i <= Nat.div2 (i + j) < j)%nat.
Proof.
  intros H. rewrite Nat.div2_div.
  pose proof (Nat.div_mod (i + j) 2 ltac:(lia)) as E.
  pose proof (Nat.mod_upper_bound (i + j) 2 ltac:(lia)) as U. lia.
Qed.

(* the three-way comparison of the loop as the boolean below, to which below_bound applies *)
Lemma bs_loop_step f es key i j :
  bs_loop (S f) es key i j =
  if Nat.ltb i j then
    if below key (nth (Nat.div2 (i + j)) es d0)
    then bs_loop f es key (S (Nat.div2 (i + j))) j
    else bs_loop f es key i (Nat.div2 (i + j))
  else i.
Proof. cbn [bs_loop]. unfold below, bltb. destruct (bcmp _ key); reflexivity. Qed.

Lemma bs_loop_spec es key : esorted es -> forall fuel i j,
  (i <= lower_bound es key <= j)%nat -> (j <= length es)%nat -> (j - i < fuel)%nat ->
  bs_loop fuel es key i j = lower_bound es key.
Proof.
  intros Hs. induction fuel as [|f IH]; intros i j Hb Hj Hf; [lia|].
  rewrite bs_loop_step. destruct (Nat.ltb_spec i j) as [Hij|]; [|lia].
  pose proof (div2_mid i j Hij) as Hh.
  pose proof (below_bound es key (Nat.div2 (i + j)) Hs ltac:(lia)) as Hp.
  destruct (below key (nth (Nat.div2 (i + j)) es d0)); apply IH; lia.
Qed.

Lemma tail_no_key e r key : esorted (e :: r) -> bcmp (ikey e) key <> Lt ->
  Forall (fun b => beqb (ikey b) key = false) r.
Proof.
  intros Hs C. eapply Forall_impl; [|exact (proj2 (StronglySorted_inv Hs))].
  intros b Hb. apply beqb_false. intros E. apply C. rewrite <- E. exact Hb.
Qed.

Lemma find_sorted es key : esorted es ->
  find (fun e => beqb (ikey e) key) es =
  if (Nat.ltb (lower_bound es key) (length es) && beqb (ikey (nth (lower_bound es key) es d0)) key)%bool
  then Some (nth (lower_bound es key) es d0) else None.
Proof.
  unfold lower_bound, below, bltb, beqb. induction es as [|e r IH]; intros Hs; [reflexivity|].
  cbn [plen find]. destruct (bcmp (ikey e) key) eqn:C.
  - simpl. rewrite C. reflexivity.
  - apply (IH (proj1 (StronglySorted_inv Hs))).
  - simpl. rewrite C. apply find_all_false, (tail_no_key e r key Hs). congruence.
Qed.

Lemma has_key_find es key :
  has_key es key = if find (fun e => beqb (ikey e) key) es then true else false.
Proof.
  induction es as [|e r IH]; [reflexivity|]. cbn [has_key existsb find].
  destruct (beqb (ikey e) key); [reflexivity|exact IH].
Qed.

Lemma has_key_at_bound es key : esorted es ->
  has_key es key
  = (Nat.ltb (lower_bound es key) (length es) && beqb (ikey (nth (lower_bound es key) es d0)) key)%bool.
Proof. intros Hs. rewrite has_key_find, (find_sorted es key Hs). destruct (_ && _)%bool; reflexivity. Qed.

Theorem bsearch_spec es key : esorted es -> bsearch es key = (lower_bound es key, has_key es key).
Proof.
  intros Hs. unfold bsearch.
  rewrite (bs_loop_spec es key Hs (S (length es)) 0 (length es)).
  - rewrite (has_key_at_bound es key Hs). reflexivity.
  - pose proof (plen_le (below key) es). unfold lower_bound. lia.
  - lia.
  - lia.
Qed.

Theorem slice_get_spec es key : esorted es ->
  slice_get es key = option_map ival (find (fun e => beqb (ikey e) key) es).
Proof.
  intros Hs. unfold slice_get. rewrite (bsearch_spec es key Hs), (has_key_at_bound es key Hs), (find_sorted es key Hs).
  destruct (_ && _)%bool; reflexivity.
Qed.

Theorem slice_from_spec es key : esorted es ->
  slice_from es key = filter (fun e => negb (bltb (ikey e) key)) es.
Proof.
  intros Hs. unfold slice_from. rewrite (bsearch_spec es key Hs). simpl fst.
  rewrite slice_iter_clip by apply Nat.le_refl.
  apply (skipn_plen (below key) es), pmono_below, Hs.
Qed.

Lemma plen_upto es hi : esorted es ->
  plen (upto hi) es = (lower_bound es hi + if has_key es hi then 1 else 0)%nat.
Proof.
  induction es as [|e r IH]; intros Hs; [reflexivity|]. destruct (StronglySorted_inv Hs) as [Hs' Hh].
  unfold lower_bound. cbn [plen has_key existsb]. unfold upto at 1, below at 1, bleb, bltb, beqb at 1.
  destruct (bcmp (ikey e) hi) eqn:C; cbn [orb].
  - apply bcmp_eq in C. subst hi. f_equal. destruct r as [|e2 r2]; [reflexivity|].
    pose proof (Forall_inv Hh) as H2. apply (cmp_gt_lt bcmp bcmp_laws) in H2.
    cbn [plen]. unfold upto, bleb. rewrite H2. reflexivity.
  - rewrite (IH Hs'). reflexivity.
  - fold (has_key r hi). unfold has_key.
    rewrite existsb_all_false; [reflexivity|]. apply (tail_no_key e r hi Hs). congruence.
Qed.

Lemma slice_window es lo hi : esorted es -> bcmp lo hi <> Gt ->
  slice_iter es (lower_bound es lo) (plen (upto hi) es)
  = filter (fun e => bleb lo (ikey e) && bleb (ikey e) hi) es.
Proof.
  intros Hs Hle. unfold slice_iter, lower_bound.
  rewrite (window_plen (below lo) (upto hi) es (pmono_below lo es Hs) (pmono_upto hi es Hs)).
  - apply filter_ext. intros a. unfold below, upto. rewrite (bleb_negb_bltb lo). reflexivity.
  - intros e. unfold below, upto, bltb, bleb. destruct (bcmp (ikey e) lo) eqn:C; try discriminate.
    intros _. rewrite (cmp_lt_le_trans bcmp bcmp_laws _ _ _ C Hle). reflexivity.
Qed.

Theorem slice_between_spec es lo hi : esorted es -> bcmp lo hi <> Gt ->
  slice_between es lo hi = Some (filter (fun e => bleb lo (ikey e) && bleb (ikey e) hi) es).
Proof.
  intros Hs Hle. unfold slice_between.
  rewrite (bsearch_spec es lo Hs), (bsearch_spec es hi Hs). simpl fst.
  (* the adjusted end index is the number of entries <= hi: the entry at the bound is not below hi *)
  assert (E : (if (Nat.ltb (lower_bound es hi) (length es) && bleb (ikey (nth (lower_bound es hi) es d0)) hi)%bool
               then S (lower_bound es hi) else lower_bound es hi) = plen (upto hi) es).
  { rewrite (plen_upto es hi Hs), (has_key_at_bound es hi Hs).
    destruct (Nat.ltb_spec (lower_bound es hi) (length es)) as [Hl|]; [|simpl; lia].
    pose proof (below_bound es hi _ Hs Hl) as Hp. unfold below, bltb in Hp. unfold bleb, beqb. cbn [andb].
    destruct (bcmp (ikey (nth (lower_bound es hi) es d0)) hi); lia. }
  rewrite E, (slice_window es lo hi Hs Hle). destruct (bcmp lo hi); [reflexivity|reflexivity|congruence].
Qed.

Theorem slice_between_rejects es lo hi : bcmp lo hi = Gt -> slice_between es lo hi = None.
Proof. intros H. unfold slice_between. rewrite H. reflexivity. Qed.

Lemma pad_exact w k : length k = w -> pad w k = k.
Proof. intros H. unfold pad. rewrite H, Nat.sub_diag. apply app_nil_r. Qed.

(* a later entry would overwrite the answer, but behind the key there is none that equals it *)
Lemma map_get_sorted w key es : esorted es ->
  Forall (fun e => length (ikey e) = w) es -> length key = w -> forall acc,
  map_get w es key acc =
  match find (fun e => beqb (ikey e) key) es with Some e => Some (ival e) | None => acc end.
Proof.
  intros Hs Hw Hk. induction es as [|e r IH]; intros acc; [reflexivity|].
  apply Forall_cons_iff in Hw. destruct Hw as [He Hr].
  cbn [map_get find]. rewrite (IH (proj1 (StronglySorted_inv Hs)) Hr).
  rewrite (pad_exact w (ikey e) He), (pad_exact w key Hk), bytes_eqb_beqb.
  destruct (beqb (ikey e) key) eqn:C; [|reflexivity].
  rewrite find_all_false; [reflexivity|]. apply (tail_no_key e r key Hs).
  apply beqb_true in C. rewrite C, bcmp_refl. discriminate.
Qed.

(* sound for keys of exactly the mapper's width (distinct keys stay distinct) *)
Theorem map_get_fixed_width w es key : esorted es ->
  Forall (fun e => length (ikey e) = w) es -> length key = w ->
  map_get w es key None = option_map ival (find (fun e => beqb (ikey e) key) es).
Proof.
  intros Hs Hw Hk. rewrite (map_get_sorted w key es Hs Hw Hk).
  destruct (find _ es); reflexivity.
Qed.

(* ... and refuted in general: a shorter key and its zero-padded twin are one map entry (F-C03c) *)
Theorem map_get_refuted :
  exists w es key, esorted es /\ (length key <= w)%nat /\ Forall (fun e => (length (ikey e) <= w)%nat) es
    /\ has_key es key = false /\ map_get w es key None <> None.
Proof.
  exists 4%nat, [([98; 0], 1, 2)], [98].
  split; [repeat constructor|]. split; [simpl; lia|].
  split; [repeat constructor; simpl; lia|]. split; [reflexivity|].
  vm_compute. discriminate.
Qed.

Print Assumptions bsearch_spec.
Print Assumptions slice_get_spec.
Print Assumptions slice_from_spec.
Print Assumptions slice_between_spec.
Print Assumptions slice_between_rejects.
Print Assumptions map_get_fixed_width.
Print Assumptions map_get_refuted.
