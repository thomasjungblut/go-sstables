(* Replaying logs into maps and tables, and [view] in closed form: the complete tables that
   finishing the compaction leaves, then the WAL. *)
From GoSST Require Import Base.Bytes SST.MergeFacts Db.Logical Db.LogicalFacts Fs.Crash.
Local Open Scope N_scope.

Definition mut_key (x : mutation) : bytes := match x with MPut k _ => k | MDel k => k end.
Definition mut_val (x : mutation) : option bytes :=
  match x with MPut _ v => reads_as (Some (Some v)) | MDel _ => None end.

Lemma reads_as_eff v : reads_as v = eff v.
Proof. reflexivity. Qed.

Fixpoint last_mut (k : bytes) (xs : list mutation) : option (option bytes) :=
  match xs with
  | [] => None
  | x :: r => match last_mut k r with
              | Some v => Some v
              | None => if beqb k (mut_key x) then Some (mut_val x) else None
              end
  end.

Lemma kv_mut_key m x k : kv_mut m x k = if beqb k (mut_key x) then mut_val x else m k.
Proof. destruct x; reflexivity. Qed.

Lemma kv_after_last xs : forall m k,
  kv_after m xs k = match last_mut k xs with Some v => v | None => m k end.
Proof.
  induction xs as [|x r IH]; intros m k; [reflexivity|].
  change (kv_after m (x :: r)) with (kv_after (kv_mut m x) r). rewrite IH. simpl.
  destruct (last_mut k r); [reflexivity|]. rewrite kv_mut_key.
  destruct (beqb k (mut_key x)); reflexivity.
Qed.

Lemma kv_after_app m a b : kv_after m (a ++ b) = kv_after (kv_after m a) b.
Proof. apply fold_left_app. Qed.

Lemma kv_after_ext a b xs : kv_eq a b -> kv_eq (kv_after a xs) (kv_after b xs).
Proof. intros H k. rewrite !kv_after_last. destruct (last_mut k xs); [reflexivity|apply H]. Qed.

Lemma kv_eq_refl a : kv_eq a a.
Proof. intros k. reflexivity. Qed.
Lemma kv_eq_sym a b : kv_eq a b -> kv_eq b a.
Proof. intros H k. symmetry. apply H. Qed.
Lemma kv_eq_trans a b c : kv_eq a b -> kv_eq b c -> kv_eq a c.
Proof. intros H1 H2 k. rewrite H1. apply H2. Qed.

Lemma kv_after_twice m s : kv_eq (kv_after (kv_after m s) s) (kv_after m s).
Proof. intros k. rewrite !kv_after_last. destruct (last_mut k s); reflexivity. Qed.

(* recovery flushes the whole log, then removes the WAL files oldest first: the suffix that is left is replayed
   over a state that already holds it *)
Lemma kv_after_suffix m a s : kv_eq (kv_after (kv_after m (a ++ s)) s) (kv_after m (a ++ s)).
Proof. rewrite kv_after_app. apply kv_after_twice. Qed.

(* a log replayed into a table that lies over older ones [x] *)
Lemma store_kv recs : forall (t : ltable) (x : bytes -> option mval) (m : kvmap),
  (forall k, reads_as (orelse (lt_get k t) (x k)) = m k) ->
  forall k, reads_as (orelse (lt_get k (fold_left apply_mut recs t)) (x k)) = kv_after m recs k.
Proof.
  induction recs as [|r recs IH]; intros t x m H; [exact H|].
  apply (IH _ x (kv_mut m r)). intros k.
  destruct r as [k0 v0|k0]; simpl; rewrite lt_get_set; destruct (beqb k k0); simpl; auto.
Qed.

Lemma store_of_sorted recs : lsorted (store_of recs).
Proof.
  unfold store_of. generalize lsorted_nil. generalize (@nil (bytes * mval)).
  induction recs as [|r recs IH]; intros t Ht; [exact Ht|].
  apply IH. destruct r; apply lt_set_sorted, Ht.
Qed.

Definition tpairs (ts : list tdir) : list (N * ltable) := map (fun t => (t_gen t, t_data t)) ts.

Lemma tabs_get_store ts g st recs k :
  tabs_get (ts ++ [mkT g st (store_of recs)]) k = kv_after (tabs_get ts) recs k.
Proof.
  unfold tabs_get. rewrite map_app. simpl. rewrite tables_get_snoc.
  apply (store_kv recs [] (tables_get (tpairs ts))). reflexivity.
Qed.

Definition ctabs (d : disk) : list tdir := filter is_complete (finish_comp d).
Definition newtab (d : disk) : list tdir :=
  match wal_records d with
  | [] => []
  | recs => [mkT (max_gen (ctabs d) + 1) TComplete (store_of recs)]
  end.
Definition nohalf (d : disk) : Prop := existsb is_half (finish_comp d) = false.
Definition dview (d : disk) : kvmap := kv_after (tabs_get (ctabs d)) (wal_records d).

Lemma recover_nohalf d : nohalf d -> recover d = Some (mkDisk (ctabs d ++ newtab d) [] None).
Proof.
  intros H. unfold recover, newtab. fold (ctabs d). rewrite H.
  destruct (wal_records d); [rewrite app_nil_r|]; reflexivity.
Qed.

Lemma view_dview d : nohalf d -> exists m, view d = Some m /\ kv_eq m (dview d).
Proof.
  intros H. unfold view. rewrite (recover_nohalf d H). eexists. split; [reflexivity|].
  intros k. cbn [k_tabs]. unfold newtab, dview. destruct (wal_records d).
  - rewrite app_nil_r. reflexivity.
  - apply tabs_get_store.
Qed.

Lemma view_some d m : view d = Some m -> nohalf d /\ kv_eq m (dview d).
Proof.
  unfold nohalf. destruct (existsb is_half (finish_comp d)) eqn:E.
  - unfold view, recover. rewrite E. discriminate.
  - destruct (view_dview d E) as (m' & -> & H). intros [= <-]. auto.
Qed.
