(* Recovery as a program of effects: every cut of it keeps the disk invariant and the view. *)
From Coq Require Import Lia Sorting.Sorted.
From GoSST Require Import Base.Bytes Db.LogicalFacts Base.ListFacts Fs.Crash Fs.CrashKv Fs.CrashDisk Fs.CrashOps.
Local Open Scope N_scope.

Lemma fs_run_app a : forall d b,
  fs_run d (a ++ b) = match fs_run d a with Some d1 => fs_run d1 b | None => None end.
Proof.
  induction a as [|o a IH]; intros d b; simpl; [reflexivity|].
  destruct (fs_apply d o); [apply IH|reflexivity].
Qed.

Definition all_cuts (Q : disk -> Prop) (d : disk) (p : list fsop) : Prop :=
  forall n, exists d', fs_run d (firstn n p) = Some d' /\ Q d'.

Definition stage (Q R : disk -> Prop) (d : disk) (p : list fsop) : Prop :=
  all_cuts Q d p /\ exists d1, fs_run d p = Some d1 /\ R d1.

Lemma stage_nil (Q R : disk -> Prop) d : Q d -> R d -> stage Q R d [].
Proof.
  intros HQ HR. split.
  - intros n. exists d. rewrite firstn_nil. auto.
  - exists d. auto.
Qed.

Lemma stage_cons (Q R : disk -> Prop) d o d1 p :
  Q d -> fs_apply d o = Some d1 -> stage Q R d1 p -> stage Q R d (o :: p).
Proof.
  intros HQ Hap [Hc (d2 & Hr & HR)]. split.
  - intros [|n]; simpl; [exists d; auto|]. rewrite Hap. apply Hc.
  - exists d2. simpl. rewrite Hap. auto.
Qed.

Lemma stage_end (Q R : disk -> Prop) d p :
  stage Q R d p -> exists d1, fs_run d p = Some d1 /\ Q d1 /\ R d1.
Proof.
  intros [Hc (d1 & Hr & HR)]. exists d1. destruct (Hc (length p)) as (d' & Hr' & HQ).
  rewrite firstn_all in Hr'. split; [exact Hr|]. split; [congruence|exact HR].
Qed.

Lemma stage_seq (Q R2 : disk -> Prop) d p1 d1 p2 :
  all_cuts Q d p1 -> fs_run d p1 = Some d1 -> stage Q R2 d1 p2 -> stage Q R2 d (p1 ++ p2).
Proof.
  intros Hc1 Hr [Hc2 (d2 & Hr2 & HR2)]. split.
  - intros n. rewrite firstn_app. destruct (Nat.le_gt_cases n (length p1)) as [Hle|Hgt].
    + replace (n - length p1)%nat with 0%nat by lia. rewrite firstn_O, app_nil_r. apply Hc1.
    + rewrite firstn_all2 by lia. rewrite fs_run_app, Hr. apply Hc2.
  - exists d2. rewrite fs_run_app, Hr. auto.
Qed.

Lemma stage_app (Q R1 R2 : disk -> Prop) d p1 p2 :
  stage Q R1 d p1 -> (forall d1, Q d1 -> R1 d1 -> stage Q R2 d1 p2) -> stage Q R2 d (p1 ++ p2).
Proof.
  intros H1 H2. destruct (stage_end _ _ _ _ H1) as (d1 & Hr & HQ & HR).
  apply (stage_seq _ _ _ _ d1 _ (proj1 H1) Hr), H2; assumption.
Qed.

Lemma all_cuts_mono (Q Q' : disk -> Prop) d p : (forall x, Q x -> Q' x) -> all_cuts Q d p -> all_cuts Q' d p.
Proof. intros HQ H n. destruct (H n) as (d' & H1 & H2). exists d'. auto. Qed.

Lemma stage_post (Q R R' : disk -> Prop) d p :
  (forall x, Q x -> R x -> R' x) -> stage Q R d p -> stage Q R' d p.
Proof.
  intros HR H. destruct (stage_end _ _ _ _ H) as (d1 & Hr & HQ1 & HR1). split; [apply H|]. exists d1. auto.
Qed.

Definition Keeps (v : kvmap) (d : disk) : Prop := DInv d /\ kv_eq (dview d) v.

Lemma Keeps_same v d d' :
  Keeps v d -> DInv d' -> ctabs d' = ctabs d -> wal_records d' = wal_records d -> Keeps v d'.
Proof. intros [_ Hv] Hi H1 H2. split; [exact Hi|]. unfold dview. rewrite H1, H2. exact Hv. Qed.

(* stronger, for the stages that leave the WAL alone *)
Definition KeepsT (T : list tdir) (W : list (N * list mutation)) (d : disk) : Prop :=
  DInv d /\ ctabs d = T /\ k_wals d = W.

Lemma KeepsT_Keeps d0 d : KeepsT (ctabs d0) (k_wals d0) d -> Keeps (dview d0) d.
Proof.
  intros (Hi & H1 & H2). split; [exact Hi|]. unfold dview, wal_records. rewrite H1, H2. apply kv_eq_refl.
Qed.

Lemma KeepsT_step T W d d' :
  KeepsT T W d -> DInv d' /\ ctabs d' = ctabs d -> k_wals d' = k_wals d -> KeepsT T W d'.
Proof. intros (_ & HT & HW) [Hi E] Ew. split; [exact Hi|]. split; congruence. Qed.

Definition removed (d : disk) (g : N) : disk := mkDisk (remove_tab g (k_tabs d)) (k_wals d) (k_comp d).

Lemma removed_unlink d g b :
  removed (mkDisk (map (unlink_at g b) (k_tabs d)) (k_wals d) (k_comp d)) g = removed d g.
Proof. unfold removed. cbn [k_tabs k_wals k_comp]. rewrite remove_after_unlink. reflexivity. Qed.

(* RemoveAll of a table directory recovery does not look at: any unlinks, then the directory *)
Definition kill_ops (bs : list bool) (g : N) : list fsop := map (OTblUnlink g) bs ++ [OTblGone g].

Lemma kill_table T W g bs : forall d,
  KeepsT T W d -> dead (inputs_of d) (k_tabs d) g -> find_tab g (k_tabs d) <> None ->
  (In false bs -> In g (inputs_of d)) ->
  stage (KeepsT T W) (eq (removed d g)) d (kill_ops bs g).
Proof.
  unfold kill_ops. induction bs as [|b bs IH]; intros d Hk Hd Hf Hb; pose proof Hk as (Hi & _); simpl.
  - eapply stage_cons; [exact Hk| |apply stage_nil; [|reflexivity]].
    + rewrite fs_gone. destruct (find_tab g (k_tabs d)); [reflexivity|contradiction].
    + apply (KeepsT_step T W d _ Hk (step_gone d g Hi Hd) eq_refl).
  - eapply stage_cons; [exact Hk| |rewrite <- (removed_unlink d g b); apply IH].
    + rewrite fs_unlink. destruct (find_tab g (k_tabs d)); [reflexivity|contradiction].
    + apply (KeepsT_step T W d _ Hk (step_unlink d g b Hi Hd (fun E => Hb (or_introl E))) eq_refl).
    + apply dead_unlink, Hd.
    + cbn [k_tabs]. rewrite find_tab_map_gen by apply unlink_at_gen.
      destruct (find_tab g (k_tabs d)); [discriminate|contradiction].
    + intros H. apply Hb. right. exact H.
Qed.

Lemma kill_list T W bs : forall gs d,
  KeepsT T W d -> NoDup gs ->
  (forall g, In g gs -> dead (inputs_of d) (k_tabs d) g /\ find_tab g (k_tabs d) <> None) ->
  (In false bs -> incl gs (inputs_of d)) ->
  stage (KeepsT T W) (eq (mkDisk (filter (notin gs) (k_tabs d)) (k_wals d) (k_comp d))) d
        (flat_map (kill_ops bs) gs).
Proof.
  induction gs as [|g gs IH]; intros d Hk Hnd H Hb; simpl.
  - apply stage_nil; [exact Hk|]. rewrite filter_all_true, disk_eta; [reflexivity|].
    apply Forall_forall. reflexivity.
  - inversion Hnd as [|? ? Hg Hnd']; subst. destruct (H g (or_introl eq_refl)) as [Hd Hf].
    eapply stage_app; [apply (kill_table T W g bs d Hk Hd Hf); intros Hin; apply (Hb Hin); left; reflexivity|].
    intros d1 Hk1 <-.
    replace (filter (notin (g :: gs)) (k_tabs d)) with (filter (notin gs) (k_tabs (removed d g))).
    2:{ cbn [removed k_tabs]. unfold remove_tab. rewrite filter_filter. apply filter_ext. intros t.
        symmetry. apply negb_orb. }
    apply (IH (removed d g) Hk1 Hnd').
    + intros y Hy. destruct (H y (or_intror Hy)) as [Hd' Hf']. split; [apply dead_remove, Hd'|].
      cbn [removed k_tabs]. rewrite find_tab_remove. destruct (N.eqb_spec y g) as [->|_]; [contradiction|exact Hf'].
    + intros Hin y Hy. apply (Hb Hin). right. exact Hy.
Qed.

(* the same for those [x] of a list that pass [p]: both loops of recovery have this shape *)
Lemma kill_where {A} T W bs (p : A -> bool) (key : A -> N) (f : A -> list fsop) xs d :
  (forall x, f x = if p x then kill_ops bs (key x) else []) ->
  KeepsT T W d -> NoDup (map key (filter p xs)) ->
  (forall x, In x xs -> p x = true ->
     dead (inputs_of d) (k_tabs d) (key x) /\ find_tab (key x) (k_tabs d) <> None
     /\ (In false bs -> In (key x) (inputs_of d))) ->
  stage (KeepsT T W) (eq (mkDisk (filter (notin (map key (filter p xs))) (k_tabs d)) (k_wals d) (k_comp d))) d
        (flat_map f xs).
Proof.
  intros Hf Hk Hnd H. rewrite (flat_map_ext _ _ Hf), (flat_map_filter_map p key (kill_ops bs)).
  apply (kill_list T W bs _ d Hk Hnd).
  - intros g Hg. apply in_map_filter in Hg. destruct Hg as (x & Hx & Hp & <-).
    destruct (H x Hx Hp) as (H1 & H2 & _). auto.
  - intros Hin g Hg. apply in_map_filter in Hg. destruct Hg as (x & Hx & Hp & <-). apply (H x Hx Hp), Hin.
Qed.

Lemma stage1_discard T W d fl m c :
  KeepsT T W d -> k_comp d = Some (mkCd fl m c) -> (forall l, fl <> FlagGood l) ->
  stage (KeepsT T W) (fun d1 => k_comp d1 = None) d [OCompDamage; OCompGone].
Proof.
  intros Hk Ec Hfl. pose proof Hk as (Hi & _).
  assert (inputs_of d = []) as H0 by (unfold inputs_of; rewrite Ec; destruct fl; congruence).
  assert (KeepsT T W (mkDisk (k_tabs d) (k_wals d) (Some (mkCd fl [] false)))) as Hk1.
  { apply (KeepsT_step T W d _ Hk); [|reflexivity].
    apply step_comp_noflag; [exact Hi|exact H0|intros c0 [= <-]; apply lsorted_nil|congruence]. }
  eapply stage_cons; [exact Hk|apply (fs_comp_damage d fl m c Ec Hfl)|].
  eapply stage_cons; [exact Hk1|reflexivity|apply stage_nil; [|reflexivity]].
  apply (KeepsT_step T W _ _ Hk1); [|reflexivity].
  apply (step_comp_noflag _ None); [apply Hk1|cbn; destruct fl; congruence|discriminate|discriminate].
Qed.

Lemma stage1 T W d :
  KeepsT T W d -> stage (KeepsT T W) (fun d1 => k_comp d1 = None) d (rec_comp_prog d).
Proof.
  intros Hk. pose proof Hk as (Hi & _). unfold rec_comp_prog.
  destruct (k_comp d) as [[fl m c]|] eqn:Ec; [|apply stage_nil; [exact Hk|exact Ec]].
  destruct fl as [| |[|g0 rest]]; try (apply (stage1_discard T W d _ m c Hk Ec); discriminate).
  { destruct (di_flag d Hi _ _ _ Ec) as [Hne _]. destruct (Hne eq_refl). }
  pose proof (inputs_of_flag _ _ _ _ Ec) as Ein.
  set (there := fun g => if find_tab g (k_tabs d) then true else false).
  assert (forall g, there g = true <-> find_tab g (k_tabs d) <> None) as Hth
    by (intros g; unfold there; destruct (find_tab g (k_tabs d)); split; congruence).
  eapply stage_app.
  - apply (kill_where T W [false; true] there (fun g => g) _ (g0 :: rest) d).
    + intros g. unfold there. destruct (find_tab g (k_tabs d)); reflexivity.
    + exact Hk.
    + rewrite map_id. apply NoDup_filter, (di_flag d Hi _ _ _ Ec).
    + intros g Hg Hp. rewrite Ein. split; [apply dead_input, Hg|]. split; [apply Hth, Hp|intros _; exact Hg].
  - intros d1 Hk1 Ed. pose proof Hk1 as (Hi1 & _).
    assert (k_comp d1 = Some (mkCd (FlagGood (g0 :: rest)) m c)) as Ec1 by (rewrite <- Ed; exact Ec).
    destruct (step_rename d1 g0 rest m c Hi1 Ec1) as (Hf & Hstep).
    { (* a table left has no input's generation: the inputs that were there are gone *)
      rewrite <- Ed. cbn [k_tabs]. intros t Ht Hin. apply filter_In in Ht. destruct Ht as [Ht Hn].
      apply negb_true_iff, mem_gen_false in Hn. apply Hn, in_map_filter. exists (t_gen t).
      split; [exact Hin|]. split; [|reflexivity]. apply Hth. rewrite find_tab_none. intros E. destruct (E t Ht eq_refl). }
    eapply stage_cons;
      [exact Hk1|rewrite (fs_rename d1 g0 rest m c Ec1), Hf; reflexivity|apply stage_nil; [|reflexivity]].
    apply (KeepsT_step T W d1 _ Hk1 Hstep eq_refl).
Qed.

Lemma stage2 T W d :
  KeepsT T W d -> k_comp d = None ->
  stage (KeepsT T W) (fun d' => k_comp d' = None /\ forall t, In t (k_tabs d') -> is_complete t = true)
        d (rec_tabs_prog d).
Proof.
  intros Hk Hc. pose proof Hk as (Hi & _). unfold rec_tabs_prog.
  set (part := fun t => negb (is_complete t)).
  eapply stage_post; [|apply (kill_where T W [true] part t_gen _ (k_tabs d) d)].
  - intros d' _ <-. split; [exact Hc|]. cbn [k_tabs]. intros t Ht. apply filter_In in Ht. destruct Ht as [Ht Hn].
    apply negb_true_iff, mem_gen_false in Hn. destruct (is_complete t) eqn:E; [reflexivity|].
    destruct Hn. apply in_map_filter. exists t. unfold part. rewrite E. auto.
  - intros t. unfold part. destruct (is_complete t); reflexivity.
  - exact Hk.
  - apply nsorted_NoDup, gsorted_nsorted, StronglySorted_filter, Hi.
  - intros t0 Ht0 Hp. unfold part in Hp. apply negb_true_iff in Hp. split; [|split].
    + apply dead_incomplete. intros t Ht E.
      rewrite (gsorted_unique _ t t0 (di_gs d Hi) Ht Ht0 E). exact Hp.
    + intros E. rewrite find_tab_none in E. destruct (E t0 Ht0 eq_refl).
    + intros [H|[]]. discriminate.
Qed.

(* the tables [T] hold the whole log and [W] is what is left of it: replayed over [T] every suffix gives [v] *)
Definition Flushed (v : kvmap) (T : list tdir) (W : list (N * list mutation)) (d : disk) : Prop :=
  DInv d /\ k_tabs d = T /\ k_comp d = None /\ k_wals d = W /\ (forall t, In t T -> is_complete t = true)
  /\ forall a S, flat_map snd W = a ++ S -> kv_eq (kv_after (tabs_get T) S) v.

Lemma Flushed_Keeps v T W d : Flushed v T W d -> Keeps v d.
Proof.
  intros (Hi & Ht & Hc & Hw & Hall & Hsuf). split; [exact Hi|]. unfold dview, wal_records.
  rewrite allcomplete_ctabs, Ht, Hw; [apply (Hsuf []); reflexivity|exact Hc|rewrite Ht; exact Hall].
Qed.

Lemma stage3_wals v T : forall W d,
  Flushed v T W d -> stage (Keeps v) (eq (mkDisk T [] None)) d (map (fun w => OWalRemove (fst w)) W ++ [OWalClear]).
Proof.
  induction W as [|w W IH]; intros d HF; pose proof HF as (Hi & Ht & Hc & Hw & Hall & Hsuf); simpl.
  - eapply stage_cons; [apply (Flushed_Keeps v T [] d HF)|rewrite fs_wal_clear, Ht, Hc; reflexivity|].
    apply stage_nil; [|reflexivity]. apply (Flushed_Keeps v T []). split; [|repeat split; auto].
    rewrite <- Ht, <- Hc. apply DInv_wals; [exact Hi|constructor].
  - eapply stage_cons; [apply (Flushed_Keeps v T (w :: W) d HF)| |apply IH].
    + rewrite (fs_wal_remove_head d w W (di_ws d Hi) Hw), Ht, Hc. reflexivity.
    + split; [|repeat split; auto].
      * rewrite <- Ht, <- Hc. apply DInv_wals; [exact Hi|]. pose proof (di_ws d Hi) as Hs. rewrite Hw in Hs.
        apply StronglySorted_inv in Hs. apply Hs.
      * intros a S E. apply (Hsuf (snd w ++ a)). simpl. rewrite E, app_assoc. reflexivity.
Qed.

Lemma new_table d g data :
  DInv d -> k_comp d = None -> (forall t, In t (k_tabs d) -> t_gen t < g) -> lsorted data ->
  let d3 := mkDisk (insert_tab (mkT g TPartial []) (k_tabs d)) (k_wals d) (k_comp d) in
  let d4 := mkDisk (k_tabs d ++ [mkT g TComplete data]) (k_wals d) (k_comp d) in
  fs_apply d (OTblMkdir g) = Some d3 /\ fs_apply d3 (OTblComplete g data) = Some d4
  /\ DInv d3 /\ ctabs d3 = ctabs d /\ DInv d4.
Proof.
  intros Hi Hc Hlt Hd d3 d4.
  assert (find_tab g (k_tabs d) = None) as Hf
    by (apply find_tab_none; intros t Ht E; specialize (Hlt t Ht); lia).
  destruct (step_mkdir d g Hi Hf) as [Hi3 Ect3]. fold d3 in Hi3, Ect3.
  assert (k_tabs d3 = k_tabs d ++ [mkT g TPartial []]) as E3.
  { cbn [d3 k_tabs]. rewrite <- (app_nil_r (k_tabs d)) at 1. apply insert_tab_mid; [exact Hlt|intros t []]. }
  assert (find_tab g (k_tabs d3) = Some (mkT g TPartial [])) as Hf3.
  { apply find_tab_In; [apply Hi3| |reflexivity]. rewrite E3. apply in_or_app. right. left. reflexivity. }
  assert (map (complete_at g data) (k_tabs d3) = k_tabs d4) as E4.
  { rewrite E3. apply map_complete_at_last; [exact Hlt|reflexivity]. }
  destruct (step_complete d3 g data _ Hi3 Hf3 eq_refl) as [Hi4 _]; [| |exact Hd|].
  { intros t Ht. rewrite E3 in Ht. apply in_app_or in Ht. destruct Ht as [Ht|[<-|[]]]; [|apply N.le_refl].
    apply N.lt_le_incl, Hlt, Ht. }
  { change (inputs_of d3) with (inputs_of d). rewrite (inputs_of_none d Hc). intros i []. }
  rewrite E4 in Hi4. split; [rewrite fs_mkdir, Hf; reflexivity|].
  split; [rewrite fs_complete, Hf3, E4; reflexivity|]. auto.
Qed.

Lemma stage3 d :
  DInv d -> k_comp d = None -> (forall t, In t (k_tabs d) -> is_complete t = true) ->
  stage (Keeps (dview d)) (eq (mkDisk (ctabs d ++ newtab d) [] None)) d (rec_wal_prog d).
Proof.
  intros Hi Hc Hall. pose proof (allcomplete_ctabs d Hc Hall) as Ect.
  assert (Keeps (dview d) d) as Hk by (split; [exact Hi|apply kv_eq_refl]).
  assert (forall a S T', wal_records d = a ++ S ->
          kv_eq (tabs_get T') (kv_after (tabs_get (k_tabs d)) (a ++ S)) ->
          kv_eq (kv_after (tabs_get T') S) (dview d)) as Hsuf.
  { intros a S T' E H. unfold dview. rewrite Ect, E.
    eapply kv_eq_trans; [apply kv_after_ext, H|apply kv_after_suffix]. }
  unfold rec_wal_prog, newtab. rewrite Ect, (filter_all_true is_complete) by (apply Forall_forall, Hall).
  destruct (wal_records d) as [|r0 recs] eqn:Er.
  - simpl app. rewrite app_nil_r. apply stage3_wals. split; [exact Hi|]. repeat split; auto.
    intros a S E. fold (wal_records d) in E. rewrite Er in E. symmetry in E. apply app_eq_nil in E.
    destruct E as [-> ->]. apply (Hsuf [] []); [reflexivity|apply kv_eq_refl].
  - set (rs := r0 :: recs) in *. set (g := max_gen (k_tabs d) + 1).
    destruct (new_table d g (store_of rs) Hi Hc) as (E3 & E4 & Hi3 & Ect3 & Hi4); [|apply store_of_sorted|].
    { intros t Ht. pose proof (max_gen_ge _ t Ht). unfold g. lia. }
    simpl app. eapply stage_cons; [exact Hk|exact E3|]. eapply stage_cons; [|exact E4|].
    { apply (Keeps_same _ d); [exact Hk|exact Hi3|exact Ect3|reflexivity]. }
    apply stage3_wals. split; [exact Hi4|]. repeat split; auto.
    + intros t Ht. apply in_app_or in Ht. destruct Ht as [Ht|[<-|[]]]; [apply Hall, Ht|reflexivity].
    + intros a S E. fold (wal_records d) in E. rewrite Er in E. apply (Hsuf a S _ E). rewrite <- E.
      intros k. apply tabs_get_store.
Qed.

Lemma rec_main d :
  DInv d -> exists p, rec_prog d = Some p /\ stage (Keeps (dview d)) (fun d' => recover d = Some d') d p.
Proof.
  intros Hi. set (T := ctabs d). set (W := k_wals d).
  assert (KeepsT T W d) as Hk by (split; [exact Hi|split; reflexivity]).
  assert (forall x, KeepsT T W x -> Keeps (dview d) x) as HQ by apply KeepsT_Keeps.
  pose proof (stage1 T W d Hk) as Hs1.
  destruct (stage_end _ _ _ _ Hs1) as (d1 & Hr1 & Hk1 & Hc1).
  pose proof (stage2 T W d1 Hk1 Hc1) as Hs2.
  destruct (stage_end _ _ _ _ Hs2) as (d2 & Hr2 & (Hi2 & Ht2 & Hw2) & Hc2 & Hall2).
  assert (existsb is_half (k_tabs d1) = false) as Hnh.
  { apply existsb_all_false, Forall_forall, inputs_nil_nohalf; [apply Hk1|apply inputs_of_none, Hc1]. }
  unfold rec_prog. rewrite Hr1, Hnh, Hr2. eexists. split; [reflexivity|].
  assert (dview d2 = dview d) as Edv by (unfold dview, wal_records; rewrite Ht2, Hw2; reflexivity).
  eapply stage_seq; [apply (all_cuts_mono _ _ _ _ HQ), Hs1|exact Hr1|].
  eapply stage_seq; [apply (all_cuts_mono _ _ _ _ HQ), Hs2|exact Hr2|].
  rewrite <- Edv. eapply stage_post; [|apply (stage3 d2 Hi2 Hc2 Hall2)].
  intros d' _ <-. rewrite (DInv_recover d Hi). unfold newtab, wal_records. rewrite Ht2, Hw2. reflexivity.
Qed.

Lemma rec_cut_keeps d n d' : DInv d -> rec_cut d n = Some d' -> Keeps (dview d) d'.
Proof.
  intros Hi Hcut. destruct (rec_main d Hi) as (p & Hp & Hc & _).
  unfold rec_cut in Hcut. rewrite Hp in Hcut. destruct (Hc n) as (d'' & Hr & Hk). congruence.
Qed.

Lemma rec_reach_keeps d d' : rec_reach d d' -> DInv d -> Keeps (dview d) d'.
Proof.
  induction 1 as [d|d n d1 d2 Hcut _ IH]; intros Hi.
  - split; [exact Hi|apply kv_eq_refl].
  - destruct (rec_cut_keeps d n d1 Hi Hcut) as [Hi1 Hv1]. destruct (IH Hi1) as [Hi2 Hv2].
    split; [exact Hi2|]. eapply kv_eq_trans; eassumption.
Qed.
