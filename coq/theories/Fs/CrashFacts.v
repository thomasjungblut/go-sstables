(* The invariant of a session - client thread, flusher and compactor against one directory, cut anywhere -
   and the crash theorems: what recovery makes of the directory is the state after a prefix of the operations. *)
From Coq Require Import Lia.
From GoSST Require Import Base.Bytes Db.Logical Db.LogicalFacts Base.ListFacts Fs.Crash.
From GoSST Require Import Fs.CrashKv Fs.CrashDisk Fs.CrashOps Fs.CrashRec.
Local Open Scope N_scope.

Notation flush_t := (option (N * list mutation * N * N)) (only parsing).

Definition logged_of (cl : client) : list mutation :=
  match cl with ClLogged m | ClApplied m => [m] | _ => [] end.
Definition pending_of (cl : client) : list mutation :=
  match cl with ClLogged m => [m] | _ => [] end.

(* The clauses of the invariant speak of what recovery sees: the complete tables [ct] and the WAL files [wals].
   Of the flusher's state [Some (w, ms, ph, g)], [w] is on disk before phase 3, and [g] is a complete table from
   phase 2. *)
Definition fl_wals (fl : flush_t) : list (N * list mutation) :=
  match fl with Some (w, ms, ph, g) => if ph <? 3 then wfile w ms else [] | None => [] end.
Definition fl_tab (fl : flush_t) : list N :=
  match fl with Some (w, ms, ph, g) => if ph <? 2 then [] else [g] | None => [] end.

(* from the readable flag on, recovery sees the merged table in the place of the first input and none of the
   others, while the session lists all inputs until reflect is through ([CFlagged _ []]) *)
Definition eff_tables (comp : cphase) (tables : list N) : list N :=
  match comp with
  | CFlagged (g0 :: rest) _ => filter (fun g => negb (mem_gen g rest)) tables
  | _ => tables
  end.

(* what is on disk is the state after a prefix [p] of the operations; the rest is in the buffer *)
Definition Iview (base : kvmap) (ct : list tdir) (wals : list (N * list mutation))
    (buf acked : list mutation) (cl : client) (mark : nat) : Prop :=
  exists p, p ++ buf = acked ++ logged_of cl
            /\ kv_eq (kv_after (tabs_get ct) (flat_map snd wals)) (kv_after base p) /\ (mark <= length p)%nat.

Definition Iwals (wals : list (N * list mutation)) (fl : flush_t) (cur : N) (buf wr : list mutation) (cl : client) : Prop :=
  exists cf, wals = fl_wals fl ++ wfile cur cf /\ cf ++ buf = wr ++ pending_of cl.

(* [fl_some]: only a non-empty store gets a table; [fl_idem]: in phase 2 replaying [ms] over the tables changes
   nothing, so the file may go *)
Record Fl (ct : list tdir) (cur gen : N) (tables : list N) (w : N) (ms : list mutation) (ph g : N) : Prop := {
  fl_old : w < cur;
  fl_phase : ph <= 3;
  fl_some : ph = 0 \/ ms <> [];
  fl_gen : 1 <= ph -> g = gen /\ forall x, In x tables -> x < g;
  fl_idem : ph = 2 -> kv_eq (kv_after (tabs_get ct) ms) (tabs_get ct)
}.
Definition Iflush (ct : list tdir) (fl : flush_t) (cur gen : N) (tables : list N) : Prop :=
  match fl with None => True | Some (w, ms, ph, g) => Fl ct cur gen tables w ms ph g end.

Definition CompSel (ct : list tdir) (inputs : list N) (merged : ltable) : Prop :=
  exists P I X, ct = P ++ I ++ X /\ map t_gen I = inputs /\ inputs <> []
                /\ merged = mk_merged P (lt_union (map t_data I)).

Fixpoint todo_ok (inputs : list N) (l : list fsop) : Prop :=
  match l with
  | OTblUnlink g _ :: r | OTblGone g :: r => In g inputs /\ todo_ok inputs r
  | [OCompRename] => True
  | _ => False
  end.

Definition tab_ok (inputs : list N) (todo : list fsop) (t : tdir) : Prop :=
  In (t_gen t) inputs -> In (OTblGone (t_gen t)) todo.

Definition comp_inputs (comp : cphase) : list N :=
  match comp with CIdle => [] | CStarted i _ | CWritten i _ | CFlagBad i _ | CFlagged i _ => i end.

Definition Icomp (kc : option cdir) (tabs ct : list tdir) (comp : cphase) : Prop :=
  match comp with
  | CIdle => kc = None
  | CStarted inputs merged => kc = Some (mkCd FlagNone [] false) /\ CompSel ct inputs merged
  | CWritten inputs merged => kc = Some (mkCd FlagNone merged true) /\ CompSel ct inputs merged
  | CFlagBad inputs merged => kc = Some (mkCd FlagBad merged true) /\ CompSel ct inputs merged
  | CFlagged inputs todo =>
      match todo with
      | [] => kc = None
      | _ => todo_ok inputs todo /\ (exists merged, kc = Some (mkCd (FlagGood inputs) merged true))
             /\ Forall (tab_ok inputs todo) tabs
      end
  end.

(* the fields of a session that the flusher and the compactor leave alone *)
Record cmem := mkCm {
  cm_async : bool; cm_wr : list mutation; cm_cur : N; cm_buf : list mutation; cm_cl : client;
  cm_acked : list mutation; cm_mark : nat
}.
Definition mem_of (s : sess) : cmem :=
  mkCm (s_async s) (s_wr s) (s_cur s) (s_buf s) (s_client s) (s_acked s) (s_mark s).

(* [si_tabs] ties memory to disk *)
Record SI (base : kvmap) (d : disk) (c : cmem) (tables : list N) (gen : N) (fl : flush_t) (comp : cphase) : Prop := {
  si_disk : DInv d;
  si_view : Iview base (ctabs d) (k_wals d) (cm_buf c) (cm_acked c) (cm_cl c) (cm_mark c);
  si_sync : cm_async c = false -> cm_buf c = [];
  si_wals : Iwals (k_wals d) fl (cm_cur c) (cm_buf c) (cm_wr c) (cm_cl c);
  si_flush : Iflush (ctabs d) fl (cm_cur c) gen tables;
  si_tabs : map t_gen (ctabs d) = eff_tables comp tables ++ fl_tab fl;
  si_gen_tabs : Forall (fun t => t_gen t <= gen) (k_tabs d);
  si_gen_tables : Forall (fun x => x <= gen) tables;
  si_comp : Icomp (k_comp d) (k_tabs d) (ctabs d) comp;
  si_incl : incl (comp_inputs comp) tables
}.

Arguments si_comp {base d c tables gen fl comp} _.

Definition SInv (base : kvmap) (async : bool) (s : sess) : Prop :=
  s_async s = async /\ SI base (s_disk s) (mem_of s) (s_tables s) (s_gen s) (s_flush s) (s_comp s).

(* the end of the recovery program is one of its cuts *)
Lemma DInv_recovered d : DInv d -> DInv (mkDisk (ctabs d ++ newtab d) [] None).
Proof.
  intros Hi. destruct (rec_main d Hi) as (p & _ & Hs). destruct (stage_end _ _ _ _ Hs) as (d1 & _ & [Hi1 _] & Hrec).
  rewrite (DInv_recover d Hi) in Hrec. injection Hrec as ->. exact Hi1.
Qed.

Lemma SInv_init d d1 base async :
  DInv d -> recover d = Some d1 -> view d = Some base -> SInv base async (sess_init async d1).
Proof.
  intros Hi Hrec Hview. unfold view in Hview. rewrite Hrec in Hview. injection Hview as <-.
  rewrite (DInv_recover d Hi) in Hrec. injection Hrec as <-. cbn [k_tabs].
  set (T := ctabs d ++ newtab d). pose proof (DInv_recovered d Hi) as Hi1. fold T in Hi1.
  assert (ctabs (mkDisk T [] None) = T) as Ect.
  { apply allcomplete_ctabs; [reflexivity|]. intros t Ht. apply in_app_or in Ht.
    destruct Ht as [Ht|Ht]; [apply filter_In in Ht; apply Ht|]. unfold newtab in Ht.
    destruct (wal_records d); [contradiction|]. destruct Ht as [<-|[]]. reflexivity. }
  split; [reflexivity|]. unfold sess_init.
  cbn [s_disk s_tables s_wr s_cur s_gen s_flush s_comp s_buf s_client s_acked s_mark k_tabs].
  assert (Forall (fun t => t_gen t <= max_gen T) T) as Hmax by (apply Forall_forall, max_gen_ge).
  constructor; rewrite ?Ect; cbn [k_tabs k_wals k_comp];
    [exact Hi1| | | | | |exact Hmax|rewrite Forall_map; exact Hmax|reflexivity|intros x []].
  - exists []. split; [reflexivity|]. split; [apply kv_eq_refl|]. simpl. lia.
  - reflexivity.
  - exists []. split; reflexivity.
  - exact I.
  - simpl. symmetry. apply app_nil_r.
Qed.

Lemma fl_wals_lt ct fl cur gen tables w : Iflush ct fl cur gen tables -> In w (fl_wals fl) -> fst w < cur.
Proof.
  unfold Iflush, fl_wals. destruct fl as [[[[w0 ms] ph] g]|]; [|intros _ []].
  intros [Hw _ _ _ _] Hin. destruct (ph <? 3); [|contradiction]. destruct ms; [contradiction|].
  destruct Hin as [<-|[]]. exact Hw.
Qed.

Lemma Iflush_ext ct ct' fl cur gen tables :
  kv_eq (tabs_get ct') (tabs_get ct) -> Iflush ct fl cur gen tables -> Iflush ct' fl cur gen tables.
Proof.
  intros He. unfold Iflush. destruct fl as [[[[w ms] ph] g]|]; [|auto].
  intros [F1 F2 F3 F4 F5]. constructor; try assumption.
  intros Hph. eapply kv_eq_trans; [apply kv_after_ext; exact He|].
  eapply kv_eq_trans; [apply F5; exact Hph|]. apply kv_eq_sym. exact He.
Qed.

Lemma fl_tab_lt ct fl cur gen tables x :
  Iflush ct fl cur gen tables -> In x (fl_tab fl) -> forall y, In y tables -> y < x.
Proof.
  unfold Iflush, fl_tab. destruct fl as [[[[w ms] ph] g]|]; [|intros _ []].
  intros [_ _ _ F4 _] Hin. destruct (N.ltb_spec ph 2); [contradiction|].
  destruct Hin as [<-|[]]. apply F4. lia.
Qed.

Lemma wsorted_fl_wals fl : wsorted (fl_wals fl).
Proof.
  unfold fl_wals. destruct fl as [[[[w0 ms] ph] g]|]; [|constructor].
  destruct (ph <? 3); [apply wsorted_wfile|constructor].
Qed.

(* [ms] goes to the current file; the client state, the buffer and the ghosts change with it as the step says *)
Lemma SI_append base d async tables wr cur gen fl comp buf cl acked mark ms d' buf' cl' acked' mark' wr' :
  SI base d (mkCm async wr cur buf cl acked mark) tables gen fl comp ->
  append_all d cur ms = Some d' ->
  (forall p cf, p ++ buf = acked ++ logged_of cl -> cf ++ buf = wr ++ pending_of cl -> (mark <= length p)%nat ->
     (p ++ ms) ++ buf' = acked' ++ logged_of cl' /\ (cf ++ ms) ++ buf' = wr' ++ pending_of cl'
     /\ (mark' <= length (p ++ ms))%nat) ->
  (async = false -> buf' = []) ->
  SI base d' (mkCm async wr' cur buf' cl' acked' mark') tables gen fl comp.
Proof.
  intros [HD HV HB HW HF HT G1 G2 HC HI] Hap Hlists HB'. destruct HW as (cf & Hw & Hcf).
  assert (forall w, In w (fl_wals fl) -> fst w < cur) as Hlt by (intros w Hin; eapply fl_wals_lt; eassumption).
  rewrite (append_all_shape ms d (fl_wals fl) cur cf Hw Hlt) in Hap. injection Hap as <-.
  destruct HV as (p & Hp & Hv & Hm). destruct (Hlists p cf Hp Hcf Hm) as (L1 & L2 & L3).
  constructor; try assumption.
  - apply DInv_wals; [exact HD|]. apply wsorted_shape; [apply wsorted_fl_wals|exact Hlt].
  - exists (p ++ ms). split; [exact L1|]. split; [|exact L3]. cbn [k_wals].
    rewrite Hw, flat_map_app, wfile_records in Hv. rewrite flat_map_app, wfile_records, app_assoc, !(kv_after_app _ _ ms).
    apply kv_after_ext, Hv.
  - exists (cf ++ ms). split; [reflexivity|exact L2].
Qed.

Lemma SI_mem base d async tables wr cur gen fl comp buf cl acked mark buf' cl' acked' wr' :
  SI base d (mkCm async wr cur buf cl acked mark) tables gen fl comp ->
  (forall p cf, p ++ buf = acked ++ logged_of cl -> cf ++ buf = wr ++ pending_of cl ->
     p ++ buf' = acked' ++ logged_of cl' /\ cf ++ buf' = wr' ++ pending_of cl') ->
  (async = false -> buf' = []) ->
  SI base d (mkCm async wr' cur buf' cl' acked' mark) tables gen fl comp.
Proof.
  intros H Hl Hb. eapply SI_append with (ms := []); [exact H|reflexivity| |exact Hb].
  intros p cf Hp Hcf Hm. rewrite !app_nil_r. destruct (Hl p cf Hp Hcf). auto.
Qed.

Lemma SI_rotate base d async tables wr cur gen comp buf cl acked mark d1 :
  SI base d (mkCm async wr cur buf cl acked mark) tables gen None comp ->
  pending_of cl = [] -> append_all d cur buf = Some d1 ->
  SI base d1 (mkCm async [] (cur + 1) [] cl acked (length acked + length (logged_of cl))) tables gen
     (Some (cur, wr, 0, 0)) comp.
Proof.
  intros H Hcl Hap.
  assert (SI base d1 (mkCm async wr cur [] cl acked (length acked + length (logged_of cl))) tables gen None comp) as H1.
  { eapply SI_append; [exact H|exact Hap| |reflexivity].
    intros p cf Hp Hcf Hm. rewrite !app_nil_r, Hp, app_length. auto. }
  destruct H1 as [HD HV HB HW HF HT G1 G2 HC HI]. constructor; cbn [cm_wr cm_cur cm_buf cm_cl] in *; try assumption.
  - destruct HW as (cf & Hw & Hcf). exists []. rewrite Hcl, !app_nil_r in Hcf. subst cf.
    split; [|rewrite Hcl; reflexivity]. simpl in Hw |- *. rewrite app_nil_r. exact Hw.
  - constructor; [apply N.lt_add_pos_r; reflexivity|discriminate|left; reflexivity| |discriminate].
    intros H1. destruct (H1 eq_refl).
Qed.

Lemma Icomp_inputs_nil d comp :
  Icomp (k_comp d) (k_tabs d) (ctabs d) comp ->
  match comp with CFlagged _ (_ :: _) => False | _ => True end -> inputs_of d = [].
Proof.
  unfold Icomp, inputs_of. intros HC Hc.
  destruct comp as [|i m|i m|i m|i [|o todo]]; try contradiction;
    [|destruct HC as [HC _]..|]; rewrite HC; reflexivity.
Qed.

Lemma Icomp_inputs_lt d comp tables g :
  Icomp (k_comp d) (k_tabs d) (ctabs d) comp -> incl (comp_inputs comp) tables -> (forall x, In x tables -> x < g) ->
  forall x, In x (inputs_of d) -> x < g.
Proof.
  intros HC Hincl Hlt x Hx. destruct comp as [|i m|i m|i m|i [|o todo]];
    try (rewrite (Icomp_inputs_nil d _ HC I) in Hx; contradiction).
  destruct HC as (_ & (mg & E) & _). rewrite (inputs_of_flag _ _ _ _ E) in Hx. apply Hlt, Hincl, Hx.
Qed.

Lemma CompSel_snoc ct inputs merged c :
  CompSel ct inputs merged -> CompSel (ct ++ [c]) inputs merged.
Proof.
  intros (P & I & X & -> & H1 & H2 & H3). exists P, I, (X ++ [c]).
  rewrite <- !app_assoc. auto.
Qed.

Lemma Icomp_ct_snoc kc tabs ct comp c :
  Icomp kc tabs ct comp -> Icomp kc tabs (ct ++ [c]) comp.
Proof.
  intros HC. destruct comp; try exact HC; destruct HC as [H1 H2]; split; auto using CompSel_snoc.
Qed.

(* the table directories change; only what reflect has ahead of it looks at them *)
Lemma Icomp_tabs kc tabs tabs' ct comp :
  Icomp kc tabs ct comp ->
  (forall todo, Forall (tab_ok (comp_inputs comp) todo) tabs -> Forall (tab_ok (comp_inputs comp) todo) tabs') ->
  Icomp kc tabs' ct comp.
Proof.
  intros HC Ht. destruct comp as [|i m|i m|i m|i [|o todo]]; try exact HC.
  destruct HC as (H3 & H4 & H5). exact (conj H3 (conj H4 (Ht _ H5))).
Qed.

Lemma SI_flush_mkdir base d cm tables gen comp w ms g0 d' :
  SI base d cm tables gen (Some (w, ms, 0, g0)) comp ->
  ms <> [] -> fs_apply d (OTblMkdir (gen + 1)) = Some d' ->
  SI base d' cm tables (gen + 1) (Some (w, ms, 1, gen + 1)) comp.
Proof.
  intros [HD HV HB HW HF HT G1 G2 HC HI] Hms Hap. rewrite fs_mkdir in Hap.
  destruct (find_tab (gen + 1) (k_tabs d)) eqn:Hf; [discriminate|]. injection Hap as <-.
  destruct (step_mkdir d (gen + 1) HD Hf) as [HD' Ect].
  assert (forall x, In x tables -> x < gen + 1) as Hlt
    by (intros x Hx; rewrite Forall_forall in G2; specialize (G2 x Hx); lia).
  constructor; rewrite ?Ect; try assumption.
  - constructor; [apply HF|discriminate|right; exact Hms| |discriminate].
    intros _. split; [reflexivity|exact Hlt].
  - apply Forall_insert; [simpl; lia|]. eapply Forall_impl; [|exact G1]. simpl. intros. lia.
  - eapply Forall_impl; [|exact G2]. simpl. intros. lia.
  - apply (Icomp_tabs _ _ _ _ _ HC). intros todo Hall.
    apply Forall_insert; [|exact Hall].
    intros Hin. specialize (Hlt _ (HI _ Hin)). simpl in Hlt. lia.
Qed.

Lemma SI_flush_complete base d cm tables gen comp w ms g d' :
  SI base d cm tables gen (Some (w, ms, 1, g)) comp ->
  fs_apply d (OTblComplete g (store_of ms)) = Some d' ->
  SI base d' cm tables gen (Some (w, ms, 2, g)) comp.
Proof.
  intros [HD HV HB HW HF HT G1 G2 HC HI] Hap. destruct HF as [F1 F2 F3 F4 F5].
  destruct F4 as [-> Hlt]; [discriminate|]. rewrite fs_complete in Hap.
  destruct (find_tab gen (k_tabs d)) as [[g' [] x]|] eqn:Hf; try discriminate. injection Hap as <-.
  destruct (step_complete d gen (store_of ms) _ HD Hf eq_refl) as [HD' Ect];
    [apply Forall_forall, G1|apply (Icomp_inputs_lt d comp tables gen HC HI Hlt)|apply store_of_sorted|].
  set (C := mkT gen TComplete (store_of ms)) in *.
  assert (kv_eq (tabs_get (ctabs d ++ [C])) (kv_after (tabs_get (ctabs d)) ms)) as Hsnoc
    by (intros k; apply tabs_get_store).
  constructor; rewrite ?Ect; try assumption.
  - destruct HV as (p & Hp & Hv & Hm). exists p. split; [exact Hp|]. split; [|exact Hm].
    eapply kv_eq_trans; [|exact Hv]. destruct HW as (cf & -> & _). cbn [k_wals].
    rewrite flat_map_app. simpl fl_wals. rewrite wfile_records, !kv_after_app.
    apply kv_after_ext. eapply kv_eq_trans; [apply kv_after_ext; exact Hsnoc|]. apply kv_after_twice.
  - constructor; [exact F1|discriminate|right; destruct F3 as [F3|F3]; [discriminate|exact F3]| |].
    { intros _. split; [reflexivity|exact Hlt]. }
    intros _. eapply kv_eq_trans; [apply kv_after_ext; exact Hsnoc|].
    eapply kv_eq_trans; [apply kv_after_twice|]. apply kv_eq_sym. exact Hsnoc.
  - rewrite map_app, HT. simpl. rewrite app_nil_r. reflexivity.
  - apply Forall_map. eapply Forall_impl; [|exact G1].
    intros t. rewrite complete_at_gen. auto.
  - apply Icomp_ct_snoc, (Icomp_tabs _ _ _ _ _ HC). intros todo Hall. apply Forall_map.
    eapply Forall_impl; [|exact Hall]. intros y. unfold tab_ok. rewrite complete_at_gen. auto.
Qed.

Lemma SI_flush_remove base d cm tables gen comp w ms g d' :
  SI base d cm tables gen (Some (w, ms, 2, g)) comp ->
  fs_apply d (OWalRemove w) = Some d' ->
  SI base d' cm tables gen (Some (w, ms, 3, g)) comp.
Proof.
  intros [HD HV HB HW HF HT G1 G2 HC HI] Hap. destruct HF as [F1 F2 F3 F4 F5].
  destruct F3 as [F3|F3]; [discriminate|]. destruct HW as (cf & Hw & Hcf).
  destruct ms as [|m0 ms]; [contradiction|]. simpl in Hw.
  rewrite (fs_wal_remove_head d (w, m0 :: ms) _ (di_ws d HD) Hw : fs_apply d (OWalRemove w) = _) in Hap. injection Hap as <-.
  constructor; try assumption.
  - apply DInv_wals; [exact HD|apply wsorted_wfile].
  - destruct HV as (p & Hp & Hv & Hm). exists p. split; [exact Hp|]. split; [|exact Hm].
    eapply kv_eq_trans; [|exact Hv]. rewrite Hw. cbn [k_wals flat_map snd]. rewrite kv_after_app.
    apply kv_after_ext, kv_eq_sym, F5. reflexivity.
  - exists cf. split; [reflexivity|exact Hcf].
  - constructor; [exact F1|discriminate|right; exact F3| |discriminate].
    intros _. apply F4. discriminate.
Qed.

Lemma eff_tables_snoc comp tables g :
  (forall i todo, comp = CFlagged i todo -> forall x, In x i -> x < g) ->
  eff_tables comp (tables ++ [g]) = eff_tables comp tables ++ [g].
Proof.
  intros H. destruct comp as [|i m|i m|i m|i todo]; try reflexivity.
  destruct i as [|g0 rest]; [reflexivity|]. simpl. rewrite filter_app. simpl.
  replace (mem_gen g rest) with false; [reflexivity|]. symmetry.
  apply mem_gen_false. intros Hin. specialize (H _ _ eq_refl g (or_intror Hin)). lia.
Qed.

Lemma SI_flush_install base d cm tables gen comp w ms ph g :
  SI base d cm tables gen (Some (w, ms, ph, g)) comp ->
  ph <> 0 -> ph <> 1 -> ph <> 2 ->
  SI base d cm (tables ++ [g]) gen None comp.
Proof.
  intros [HD HV HB HW HF HT G1 G2 HC HI] P0 P1 P2. destruct HF as [F1 F2 F3 F4 F5].
  assert (ph = 3) as -> by lia. destruct F4 as [-> Hlt]; [discriminate|].
  constructor; try assumption.
  - exact I.
  - rewrite HT. simpl. rewrite app_nil_r. symmetry. apply eff_tables_snoc.
    intros i todo -> x Hx. apply Hlt, HI, Hx.
  - apply Forall_app. split; [exact G2|repeat constructor; apply N.le_refl].
  - apply incl_appl, HI.
Qed.

Lemma data_of_ctabs d t : gsorted (k_tabs d) -> inputs_of d = [] -> In t (ctabs d) -> data_of d (t_gen t) = t_data t.
Proof.
  intros Hs H0 Ht. rewrite (ctabs_nil d H0) in Ht. apply filter_In in Ht. destruct Ht as [Ht _].
  unfold data_of. rewrite (find_tab_In (t_gen t) (k_tabs d) t Hs Ht eq_refl). reflexivity.
Qed.

Lemma CompSel_sorted ct inputs merged : CompSel ct inputs merged -> lsorted merged.
Proof. intros (P & I & X & _ & _ & _ & ->). apply mk_merged_sorted, lt_union_sorted. Qed.

Lemma SI_comp_noflag base d cm tables gen fl comp comp' kc :
  SI base d cm tables gen fl comp ->
  match comp with CFlagged _ _ => False | _ => True end ->
  match comp' with CFlagged _ _ => False | _ => True end ->
  (forall c, kc = Some c -> lsorted (cd_merged c)) -> (forall l m c, kc <> Some (mkCd (FlagGood l) m c)) ->
  Icomp kc (k_tabs d) (ctabs d) comp' -> incl (comp_inputs comp') tables ->
  SI base (mkDisk (k_tabs d) (k_wals d) kc) cm tables gen fl comp'.
Proof.
  intros [HD HV HB HW HF HT G1 G2 HC HI] Hc Hc' Hm Hng HC' HI'.
  assert (inputs_of d = []) as H0 by (apply (Icomp_inputs_nil d comp HC); destruct comp; try contradiction; exact I).
  destruct (step_comp_noflag d kc HD H0 Hm Hng) as [HD' Ect].
  constructor; rewrite ?Ect; try assumption.
  rewrite HT. destruct comp, comp'; try contradiction; reflexivity.
Qed.

Lemma SI_comp_start base d cm tables gen fl skip len d' inputs :
  SI base d cm tables gen fl CIdle ->
  firstn len (skipn skip tables) = inputs -> inputs <> [] ->
  fs_apply d OCompMkdir = Some d' ->
  SI base d' cm tables gen fl
     (CStarted inputs (match skip with
                       | O => drop_tombstones (lt_union (map (data_of d) inputs))
                       | _ => keep_tombstones (lt_union (map (data_of d) inputs)) end)) .
Proof.
  intros H Einp Hne Hap. pose proof H as [HD _ _ _ _ HT _ _ HC _]. simpl in HC.
  rewrite fs_comp_mkdir, HC in Hap. injection Hap as <-.
  pose proof (inputs_of_none d HC) as H0.
  assert (tables = firstn skip tables ++ inputs ++ skipn len (skipn skip tables)) as Etab
    by (rewrite <- Einp, !firstn_skipn; reflexivity).
  eapply SI_comp_noflag with (comp := CIdle); [exact H|exact I|exact I| |discriminate| |].
  { intros c [= <-]. apply lsorted_nil. }
  2:{ intros x Hx. rewrite Etab. apply in_or_app. right. apply in_or_app. left. exact Hx. }
  split; [reflexivity|].
  simpl eff_tables in HT.
  rewrite Etab in HT at 1. rewrite <- !app_assoc in HT. apply map_eq_app in HT. destruct HT as (P & R & Ect' & EP & ER).
  apply map_eq_app in ER. destruct ER as (I & X & -> & EI & EX).
  exists P, I, X. split; [exact Ect'|]. split; [exact EI|]. split; [exact Hne|].
  replace (map (data_of d) inputs) with (map t_data I).
  2:{ rewrite <- EI, map_map. apply map_ext_in. intros t Ht. symmetry. apply data_of_ctabs; [apply HD|exact H0|].
      rewrite Ect'. apply in_or_app. right. apply in_or_app. left. exact Ht. }
  (* [P] is as long as [firstn skip tables], and [skip] is below the length of [tables] since [inputs <> []] *)
  destruct skip as [|n], P as [|p P]; try reflexivity; try discriminate. exfalso.
  destruct tables as [|x tables]; [|discriminate]. apply Hne. rewrite <- Einp. destruct len; reflexivity.
Qed.

Lemma todo_ok_init inputs l : incl l inputs -> todo_ok inputs (flat_map (kill_ops [false; true]) l ++ [OCompRename]).
Proof.
  induction l as [|g l IH]; intros Hincl; simpl; [exact I|].
  assert (In g inputs) as Hg by (apply Hincl; left; reflexivity).
  split; [exact Hg|]. split; [exact Hg|]. split; [exact Hg|].
  apply IH. intros x Hx. apply Hincl. right. exact Hx.
Qed.

Lemma SI_comp_flag base d cm tables gen fl inputs merged d' :
  SI base d cm tables gen fl (CFlagBad inputs merged) ->
  fs_apply d (OCompFlag (FlagGood inputs)) = Some d' ->
  SI base d' cm tables gen fl (CFlagged inputs (flat_map (kill_ops [false; true]) inputs ++ [OCompRename])).
Proof.
  intros [HD HV HB HW HF HT G1 G2 HC HI] Hap.
  assert (inputs_of d = []) as H0 by (apply (Icomp_inputs_nil d _ HC); exact I).
  destruct HC as [Ec (P & I & X & Ect & EI & Hne & Em)].
  rewrite (fs_comp_flag d _ _ Ec) in Hap. injection Hap as <-.
  destruct inputs as [|g0 rest]; [contradiction|].
  destruct (step_flag_good d P I X g0 rest FlagBad merged HD H0 Ect EI Ec) as [HD' Ect'].
  assert (kv_eq (tabs_get (P ++ mkT g0 TComplete merged :: X)) (tabs_get (ctabs d))) as Hview.
  { intros k. rewrite Ect. apply flag_view; [|exact Em].
    pose proof (ctabs_data_sorted d HD) as Hs. rewrite Ect, !Forall_app in Hs. apply Hs. }
  constructor; rewrite ?Ect'; try assumption.
  - destruct HV as (p & Hp & Hv & Hm). exists p. split; [exact Hp|]. split; [|exact Hm].
    eapply kv_eq_trans; [apply kv_after_ext; exact Hview|exact Hv].
  - eapply Iflush_ext; eassumption.
  - simpl eff_tables in HT |- *.
    pose proof (gsorted_ctabs d HD) as Hgs. apply gsorted_nsorted in Hgs.
    rewrite Ect, !map_app, EI in Hgs, HT. rewrite map_app. cbn [map t_gen].
    rewrite <- (filter_run _ _ _ _ Hgs), HT, filter_app. f_equal.
    apply filter_all_true, Forall_forall. intros x Hx. apply negb_true_iff, mem_gen_false. intros Hin.
    assert (x < x) by (eapply fl_tab_lt; [exact HF|exact Hx|apply HI; right; exact Hin]). exact (N.lt_irrefl x H).
  - destruct (flat_map (kill_ops [false; true]) (g0 :: rest) ++ [OCompRename]) as [|o todo] eqn:Et; [discriminate|].
    cbv iota. rewrite <- Et.
    split; [apply todo_ok_init, incl_refl|]. split; [exists merged; reflexivity|].
    apply Forall_forall. intros t _ Hin. apply in_or_app. left. apply in_flat_map. exists (t_gen t).
    split; [exact Hin|]. right. right. left. reflexivity.
Qed.

Lemma SI_comp_todo base d cm tables gen fl inputs o todo d' :
  SI base d cm tables gen fl (CFlagged inputs (o :: todo)) ->
  fs_apply d o = Some d' ->
  SI base d' cm tables gen fl (CFlagged inputs todo).
Proof.
  intros [HD HV HB HW HF HT G1 G2 (Hok & (merged & Ec) & Htabs) HI] Hap.
  pose proof (inputs_of_flag _ _ _ _ Ec) as Ein.
  assert (forall x, In x (o :: todo) -> x <> o -> In x todo) as Hnext
    by (intros x [<-|Hx] Hne; [destruct (Hne eq_refl)|exact Hx]).
  destruct inputs as [|g0 rest]; [destruct (proj1 (di_flag d HD _ _ _ Ec) eq_refl)|].
  destruct o as [| | | | |g b|g| | | | | |]; simpl in Hok; try contradiction.
  - destruct Hok as [Hg Hok'].
    rewrite fs_unlink in Hap. destruct (find_tab g (k_tabs d)); [|discriminate]. injection Hap as <-.
    destruct (step_unlink d g b HD) as [HD' Ect]; [rewrite Ein; apply dead_input, Hg|rewrite Ein; auto|].
    constructor; rewrite ?Ect; try assumption.
    + apply Forall_map. eapply Forall_impl; [|exact G1].
      intros y. rewrite unlink_at_gen. auto.
    + destruct todo as [|o' todo']; [contradiction|].
      split; [exact Hok'|]. split; [exists merged; exact Ec|]. apply Forall_map.
      eapply Forall_impl; [|exact Htabs]. intros y Y1. unfold tab_ok. rewrite unlink_at_gen.
      intros Hin. apply (Hnext _ (Y1 Hin)). discriminate.
  - destruct Hok as [Hg Hok'].
    rewrite fs_gone in Hap. destruct (find_tab g (k_tabs d)); [|discriminate]. injection Hap as <-.
    destruct (step_gone d g HD) as [HD' Ect]; [rewrite Ein; apply dead_input, Hg|].
    constructor; rewrite ?Ect; try assumption.
    + apply Forall_filter, G1.
    + destruct todo as [|o' todo']; [contradiction|].
      split; [exact Hok'|]. split; [exists merged; exact Ec|].
      rewrite Forall_forall in Htabs |- *. intros y Ht Hin. apply filter_In in Ht. destruct Ht as [Ht Hng].
      apply (Hnext _ (Htabs y Ht Hin)). intros [= E]. unfold has_gen in Hng.
      rewrite E, N.eqb_refl in Hng. discriminate.
  - destruct todo; [|contradiction].
    destruct (step_rename d g0 rest merged true HD Ec) as (Hf & HD' & Ect).
    { intros y Ht Hin. rewrite Forall_forall in Htabs. destruct (Htabs y Ht Hin) as [E|[]]. discriminate. }
    rewrite (fs_rename d g0 rest merged true Ec), Hf in Hap. injection Hap as <-.
    constructor; rewrite ?Ect; try assumption.
    + apply Forall_insert; [|exact G1].
      rewrite Forall_forall in G2. apply G2, HI. left. reflexivity.
    + reflexivity.
Qed.

Lemma SI_comp_done base d cm tables gen fl g0 rest :
  SI base d cm tables gen fl (CFlagged (g0 :: rest) []) ->
  SI base d cm (filter (fun g => negb (mem_gen g rest)) tables) gen fl CIdle.
Proof.
  intros [HD HV HB HW HF HT G1 G2 Ec _].
  constructor; try assumption.
  - unfold Iflush in *. destruct fl as [[[[w ms] ph] g]|]; [|exact I].
    destruct HF as [F1 F2 F3 F4 F5]. constructor; try assumption.
    intros Hph. destruct (F4 Hph) as [Eg Hlt]. split; [exact Eg|].
    intros x Hx. apply filter_In in Hx. apply Hlt, Hx.
  - apply Forall_filter, G2.
  - intros x [].
Qed.

Ltac sproj_in H := cbn [s_disk s_async s_tables s_wr s_cur s_gen s_flush s_comp s_buf s_client s_acked s_mark] in H.

Lemma SInv_mk base d async tables wr cur gen fl comp buf cl acked mark :
  SI base d (mkCm async wr cur buf cl acked mark) tables gen fl comp ->
  SInv base async (mkS d async tables wr cur gen fl comp buf cl acked mark).
Proof. intros H. split; [reflexivity|exact H]. Qed.

Lemma via_effect base async (o : option disk) (f : disk -> sess) s' :
  (forall d1, o = Some d1 -> SInv base async (f d1)) ->
  match o with Some d1 => Some (f d1) | None => None end = Some s' -> SInv base async s'.
Proof. intros H. destruct o as [d1|]; [|discriminate]. intros [= <-]. apply H. reflexivity. Qed.

Lemma SInv_flush base d async tables wr cur gen fl comp buf cl acked mark s' :
  SI base d (mkCm async wr cur buf cl acked mark) tables gen fl comp ->
  sstep (mkS d async tables wr cur gen fl comp buf cl acked mark) SFlush = Some s' -> SInv base async s'.
Proof.
  intros H Hs. unfold sstep in Hs. sproj_in Hs.
  destruct fl as [[[[w ms] ph] g]|]; [|discriminate]. cbv zeta in Hs.
  destruct (N.eqb_spec ph 0) as [->|P0].
  { destruct ms as [|m0 ms].
    - injection Hs as <-. apply SInv_mk. destruct H as [HD HV HB HW HF HT G1 G2 HC HI].
      constructor; try assumption. exact I.
    - revert Hs. apply via_effect. intros d1 Hap.
      apply SInv_mk. eapply SI_flush_mkdir; [exact H|discriminate|exact Hap]. }
  destruct (N.eqb_spec ph 1) as [->|P1].
  { revert Hs. apply via_effect. intros d1 Hap.
    apply SInv_mk. eapply SI_flush_complete; [exact H|exact Hap]. }
  destruct (N.eqb_spec ph 2) as [->|P2].
  { revert Hs. apply via_effect. intros d1 Hap.
    apply SInv_mk. eapply SI_flush_remove; [exact H|exact Hap]. }
  injection Hs as <-. apply SInv_mk. eapply SI_flush_install; eassumption.
Qed.

Lemma SInv_comp base d async tables wr cur gen fl comp buf cl acked mark s' :
  SI base d (mkCm async wr cur buf cl acked mark) tables gen fl comp ->
  sstep (mkS d async tables wr cur gen fl comp buf cl acked mark) SComp = Some s' -> SInv base async s'.
Proof.
  intros H Hs. unfold sstep, set_comp in Hs. sproj_in Hs.
  destruct comp as [|inputs merged|inputs merged|inputs merged|inputs todo]; [discriminate| | | |].
  1,2: (* CStarted, CWritten: no readable flag before or after *)
    destruct (si_comp H) as [Ec Hsel]; rewrite ?(fs_comp_written d _ _ Ec), ?(fs_comp_flag d _ _ Ec) in Hs; injection Hs as <-;
    apply SInv_mk; eapply SI_comp_noflag; [exact H|exact I|exact I| |discriminate|split; [reflexivity|exact Hsel]|apply H];
    intros c [= <-]; apply (CompSel_sorted _ _ _ Hsel).
  - revert Hs. apply via_effect. intros d1 Hap.
    apply SInv_mk. eapply SI_comp_flag; [exact H|exact Hap].
  - destruct todo as [|o todo].
    + destruct inputs as [|g0 rest]; [discriminate|]. injection Hs as <-. apply SInv_mk. eapply SI_comp_done; exact H.
    + revert Hs. apply via_effect. intros d1 Hap.
      apply SInv_mk. eapply SI_comp_todo; [exact H|exact Hap].
Qed.

Lemma SInv_step base async s a s' : SInv base async s -> sstep s a = Some s' -> SInv base async s'.
Proof.
  intros [Ha H] Hs. destruct s as [d async0 tables wr cur gen fl comp buf cl acked mark].
  sproj_in Ha. sproj_in H. subst async0.
  destruct a as [m| | | |n| | |skip len|];
    [| | | | | |eapply SInv_flush; eassumption| |eapply SInv_comp; eassumption];
    unfold sstep, set_client, set_disk, set_comp in Hs; sproj_in Hs.
  - destruct cl; try discriminate. destruct (mut_ok m); [|discriminate]. injection Hs as <-.
    apply SInv_mk. eapply SI_mem; [exact H|auto|apply H].
  - destruct cl as [|m|m|m]; try discriminate. destruct async.
    + injection Hs as <-. apply SInv_mk. eapply SI_mem; [exact H| |discriminate]. simpl. intros p cf Hp Hcf.
      rewrite !app_assoc, Hp, Hcf, !app_nil_r. auto.
    + revert Hs. apply via_effect. intros d1 Hap.
      assert (buf = []) as -> by (apply H; reflexivity).
      apply SInv_mk. eapply SI_append with (ms := [m]); [exact H| | |reflexivity].
      * cbn [append_all]. rewrite Hap. reflexivity.
      * simpl. intros p cf Hp Hcf Hm. rewrite !app_nil_r in Hp, Hcf |- *. subst p cf. rewrite app_length. auto with arith.
  - destruct cl as [|m|m|m]; try discriminate. injection Hs as <-. apply SInv_mk. eapply SI_mem; [exact H| |apply H].
    simpl. intros p cf Hp Hcf. rewrite app_nil_r. auto.
  - destruct cl as [|m|m|m]; try discriminate. injection Hs as <-. apply SInv_mk. eapply SI_mem; [exact H| |apply H].
    simpl. intros p cf Hp Hcf. rewrite app_nil_r. auto.
  - destruct async; [|discriminate].
    revert Hs. apply via_effect. intros d1 Hap.
    apply SInv_mk. eapply SI_append; [exact H|exact Hap| |discriminate].
    intros p cf Hp Hcf Hm. rewrite <- !app_assoc, firstn_skipn, app_length. auto with arith.
  - destruct cl as [|m|m|m]; try discriminate; destruct fl; try discriminate;
      revert Hs; apply via_effect; intros d1 Hap;
      apply SInv_mk; (eapply SI_rotate; [exact H|reflexivity|exact Hap]).
  - destruct comp; try discriminate.
    destruct (firstn len (skipn skip tables)) as [|i0 irest] eqn:Ein; [discriminate|].
    revert Hs. apply via_effect. intros d1 Hap.
    apply SInv_mk. eapply SI_comp_start with (d := d) (skip := skip) (len := len); [exact H|exact Ein|discriminate|exact Hap].
Qed.

Lemma SInv_run base async acts : forall s s', SInv base async s -> srun s acts = Some s' -> SInv base async s'.
Proof.
  induction acts as [|a acts IH]; intros s s' H Hr; simpl in Hr.
  - injection Hr as <-. exact H.
  - destruct (sstep s a) as [s1|] eqn:Hs; [|discriminate]. eapply IH; [|exact Hr]. eapply SInv_step; eassumption.
Qed.

Lemma DInv_empty : DInv disk_empty.
Proof. constructor; simpl; try discriminate; try constructor. intros t []. Qed.

Lemma Reach_DInv d : Reach d -> DInv d.
Proof.
  induction 1 as [|d d1 async acts s _ IH Hrec Hrun|d n d' _ IH Hcut].
  - apply DInv_empty.
  - destruct (DInv_view d IH) as (base & Hview & _).
    apply (SInv_run base async acts _ _ (SInv_init d d1 base async IH Hrec Hview) Hrun).
  - apply (rec_cut_keeps d n d' IH Hcut).
Qed.

Lemma session_view d d1 base async acts s :
  DInv d -> recover d = Some d1 -> view d = Some base -> srun (sess_init async d1) acts = Some s ->
  exists m p, view (s_disk s) = Some m /\ kv_eq m (kv_after base p)
              /\ p ++ s_buf s = s_acked s ++ logged_of (s_client s)
              /\ (s_mark s <= length p)%nat /\ (async = false -> s_buf s = []).
Proof.
  intros Hi Hrec Hview Hrun.
  destruct (SInv_run base async acts _ _ (SInv_init d d1 base async Hi Hrec Hview) Hrun)
    as [Ha [HD (p & Hp & Hv & Hm) HB _ _ _ _ _ _ _]].
  destruct (DInv_view (s_disk s) HD) as (m & Hm1 & Hm2).
  exists m, p. split; [exact Hm1|]. split; [eapply kv_eq_trans; [exact Hm2|exact Hv]|].
  split; [exact Hp|]. split; [exact Hm|]. intros E. apply HB. rewrite <- E. exact Ha.
Qed.

(* whatever a killed process leaves behind, Open succeeds on it *)
Theorem reachable_recovers (d : disk) : Reach d -> exists d', recover d = Some d'.
Proof. intros Hr. eexists. apply DInv_recover, Reach_DInv, Hr. Qed.

Theorem rec_prog_is_recover (d : disk) :
  Reach d -> exists p d', rec_prog d = Some p /\ fs_run d p = Some d' /\ recover d = Some d'.
Proof.
  intros Hr. destruct (rec_main d (Reach_DInv d Hr)) as (p & Hp & _ & (d' & Hrun & Hrec)). exists p, d'. auto.
Qed.

(* C10: a recovery cut after any number of its effects, any number of times, leaves a disk that recovers to
   the same content *)
Theorem recovery_idempotent (d d' : disk) :
  Reach d -> rec_reach d d' ->
  exists m m', view d = Some m /\ view d' = Some m' /\ kv_eq m m'.
Proof.
  intros Hr Hreach. pose proof (Reach_DInv d Hr) as Hi.
  destruct (rec_reach_keeps d d' Hreach Hi) as [Hi' Hv].
  destruct (DInv_view d Hi) as (m & Hm1 & Hm2). destruct (DInv_view d' Hi') as (m' & Hm1' & Hm2').
  exists m, m'. split; [exact Hm1|]. split; [exact Hm1'|].
  eapply kv_eq_trans; [exact Hm2|]. apply kv_eq_sym. eapply kv_eq_trans; [exact Hm2'|exact Hv].
Qed.

(* C02: synchronous WAL.  The directory recovers to exactly the operations that have returned; the one in
   flight may or may not be there *)
Theorem sync_crash_safe (d d1 : disk) (base : kvmap) (acts : list saction) (s : sess) :
  Reach d -> recover d = Some d1 -> view d = Some base ->
  srun (sess_init false d1) acts = Some s ->
  exists m, view (s_disk s) = Some m /\
            (kv_eq m (kv_after base (s_acked s)) \/ kv_eq m (kv_after base (s_acked s ++ inflight s))).
Proof.
  intros Hr Hrec Hview Hrun.
  destruct (session_view d d1 base false acts s (Reach_DInv d Hr) Hrec Hview Hrun) as (m & p & Hm & Hv & Hp & _ & Hb).
  rewrite (Hb eq_refl), app_nil_r in Hp. subst p.
  exists m. split; [exact Hm|]. unfold inflight. destruct (s_client s); simpl in Hv; auto;
    rewrite app_nil_r in Hv; auto.
Qed.

Definition is_prefix {A} (a b : list A) : Prop := exists c, b = a ++ c.

(* C13: asynchronous WAL.  The directory recovers to the state after a prefix of the operation sequence
   that contains at least everything applied before the last rotation *)
Theorem async_crash_prefix (d d1 : disk) (base : kvmap) (acts : list saction) (s : sess) :
  Reach d -> recover d = Some d1 -> view d = Some base ->
  srun (sess_init true d1) acts = Some s ->
  exists m p, view (s_disk s) = Some m /\ is_prefix p (s_acked s ++ inflight s) /\
              (s_mark s <= length p)%nat /\ kv_eq m (kv_after base p).
Proof.
  intros Hr Hrec Hview Hrun.
  destruct (session_view d d1 base true acts s (Reach_DInv d Hr) Hrec Hview Hrun) as (m & p & Hm & Hv & Hp & Hmark & _).
  exists m, p. split; [exact Hm|]. split; [|split; [exact Hmark|exact Hv]].
  unfold is_prefix, inflight. destruct (s_client s) as [|x|x|x]; simpl in Hp.
  - exists (s_buf s). symmetry. exact Hp.
  - exists (s_buf s ++ [x]). rewrite app_assoc, Hp, app_nil_r. reflexivity.
  - exists (s_buf s). symmetry. exact Hp.
  - exists (s_buf s). symmetry. exact Hp.
Qed.

(* two rotations, each flushed into a table, and a compaction of the two tables that is cut inside reflect;
   the view is taken there and again after a recovery cut after two effects.  [(Some [0], Some [0])] stands
   for a failed [view]: it differs from the expected pair *)
Example crash_session :
  let acts := [SBegin (MPut [1] [10]); SLog; SApply; SReturn; SBegin (MPut [2] [20]); SLog; SApply; SRotate; SReturn;
               SFlush; SFlush; SBegin (MDel [1]); SLog; SFlush; SApply; SReturn; SFlush; SRotate; SFlush; SFlush; SFlush; SFlush;
               SCompStart 0 2; SComp; SComp; SComp; SComp; SComp; SComp; SComp] in
  match srun (sess_init false disk_empty) acts with
  | Some s =>
      k_comp (s_disk s) = Some (mkCd (FlagGood [1; 2]) [([2], Some [20])] true)
      /\ (match view (s_disk s) with Some m => (m [1], m [2]) | None => (Some [0], Some [0]) end) = (None, Some [20])
      /\ (match rec_cut (s_disk s) 2 with
          | Some d' => match view d' with Some m => (m [1], m [2]) | None => (Some [0], Some [0]) end
          | None => (Some [0], Some [0]) end) = (None, Some [20])
  | None => False
  end.
Proof.
  cbv zeta. vm_compute. repeat split; reflexivity.
Qed.

Print Assumptions reachable_recovers.
Print Assumptions rec_prog_is_recover.
Print Assumptions recovery_idempotent.
Print Assumptions sync_crash_safe.
Print Assumptions async_crash_prefix.
Print Assumptions crash_session.
