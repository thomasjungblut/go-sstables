(* The atomic effects one by one: what [fs_apply] does, what each needs to keep [DInv], and what it
   does to the tables and records recovery looks at ([ctabs], [k_wals]). *)
From Coq Require Import Lia Sorting.Sorted.
From GoSST Require Import Base.Bytes SST.MergeFacts Db.Logical Db.LogicalFacts Base.ListFacts Fs.Crash Fs.CrashKv Fs.CrashDisk.
Local Open Scope N_scope.

Definition complete_at (g : N) (data : ltable) (t : tdir) : tdir :=
  if has_gen g t then mkT g TComplete data else t.

Definition unlink_at (g : N) (meta_gone : bool) (t : tdir) : tdir :=
  if has_gen g t
  then (if meta_gone then mkT g TPartial (t_data t)
        else match t_state t with TComplete => mkT g THalf (t_data t) | _ => t end)
  else t.

Lemma has_gen_spec g t : reflect (t_gen t = g) (has_gen g t).
Proof. apply N.eqb_spec. Qed.

Lemma unlink_at_gen g b t : t_gen (unlink_at g b t) = t_gen t.
Proof.
  unfold unlink_at. destruct (has_gen_spec g t) as [E|E]; [|reflexivity].
  destruct b; [|destruct (t_state t)]; simpl; auto.
Qed.

Lemma unlink_at_data g b t : t_data (unlink_at g b t) = t_data t.
Proof.
  unfold unlink_at. destruct (has_gen g t); [|reflexivity].
  destruct b; [|destruct (t_state t)]; reflexivity.
Qed.

Lemma unlink_at_other g b t : t_gen t <> g -> unlink_at g b t = t.
Proof. intros H. unfold unlink_at. destruct (has_gen_spec g t); [contradiction|reflexivity]. Qed.

Lemma complete_at_gen g data t : t_gen (complete_at g data t) = t_gen t.
Proof. unfold complete_at. destruct (has_gen_spec g t); simpl; auto. Qed.

Lemma complete_at_other g data t : t_gen t <> g -> complete_at g data t = t.
Proof. intros H. unfold complete_at. destruct (has_gen_spec g t); [contradiction|reflexivity]. Qed.

Lemma complete_at_same g data t : t_gen t = g -> complete_at g data t = mkT g TComplete data.
Proof. intros H. unfold complete_at. destruct (has_gen_spec g t); [reflexivity|contradiction]. Qed.

Lemma map_complete_at_last g data ts t :
  (forall y, In y ts -> t_gen y < g) -> t_gen t = g ->
  map (complete_at g data) (ts ++ [t]) = ts ++ [mkT g TComplete data].
Proof.
  intros Hlt Hg. rewrite map_app. simpl. rewrite complete_at_same by exact Hg. f_equal.
  rewrite <- (map_id ts) at 2. apply map_ext_in. intros y Hy. apply complete_at_other.
  specialize (Hlt y Hy). lia.
Qed.

Lemma find_tab_map_gen f g ts : (forall t, t_gen (f t) = t_gen t) ->
  find_tab g (map f ts) = option_map f (find_tab g ts).
Proof.
  intros Hf. unfold find_tab. induction ts as [|t ts IH]; simpl; [reflexivity|].
  unfold has_gen at 1. rewrite Hf. fold (has_gen g t). destruct (has_gen g t); [reflexivity|exact IH].
Qed.

Lemma remove_after_unlink g b ts : remove_tab g (map (unlink_at g b) ts) = remove_tab g ts.
Proof.
  unfold remove_tab. induction ts as [|t ts IH]; simpl; [reflexivity|].
  unfold has_gen at 1. rewrite unlink_at_gen, IH. fold (has_gen g t).
  destruct (has_gen_spec g t) as [E|E]; simpl; [reflexivity|].
  rewrite unlink_at_other by exact E. reflexivity.
Qed.

Lemma find_tab_remove g g' ts :
  find_tab g' (remove_tab g ts) = if g' =? g then None else find_tab g' ts.
Proof.
  unfold find_tab, remove_tab. destruct (N.eqb_spec g' g) as [->|Hne].
  - apply find_all_false, Forall_forall. intros t Ht. apply filter_In in Ht.
    apply negb_true_iff, Ht.
  - induction ts as [|t ts IH]; simpl; [reflexivity|].
    destruct (has_gen_spec g t) as [E1|E1]; simpl; destruct (has_gen_spec g' t) as [E2|E2]; auto.
    congruence.
Qed.

Lemma fs_mkdir d g :
  fs_apply d (OTblMkdir g) =
  if find_tab g (k_tabs d) then None
  else Some (mkDisk (insert_tab (mkT g TPartial []) (k_tabs d)) (k_wals d) (k_comp d)).
Proof. reflexivity. Qed.

Lemma fs_complete d g data :
  fs_apply d (OTblComplete g data) =
  match find_tab g (k_tabs d) with
  | Some (mkT _ TPartial _) => Some (mkDisk (map (complete_at g data) (k_tabs d)) (k_wals d) (k_comp d))
  | _ => None
  end.
Proof. reflexivity. Qed.

Lemma fs_unlink d g b :
  fs_apply d (OTblUnlink g b) =
  if find_tab g (k_tabs d) then Some (mkDisk (map (unlink_at g b) (k_tabs d)) (k_wals d) (k_comp d)) else None.
Proof. reflexivity. Qed.

Lemma fs_gone d g :
  fs_apply d (OTblGone g) =
  if find_tab g (k_tabs d) then Some (mkDisk (remove_tab g (k_tabs d)) (k_wals d) (k_comp d)) else None.
Proof. reflexivity. Qed.

Lemma fs_rename d g0 rest m c :
  k_comp d = Some (mkCd (FlagGood (g0 :: rest)) m c) ->
  fs_apply d OCompRename =
  if find_tab g0 (k_tabs d) then None
  else Some (mkDisk (insert_tab (mkT g0 (if c then TComplete else TPartial) m) (k_tabs d)) (k_wals d) None).
Proof. intros E. unfold fs_apply. rewrite E. reflexivity. Qed.

Lemma fs_comp_mkdir d :
  fs_apply d OCompMkdir =
  if k_comp d then None else Some (mkDisk (k_tabs d) (k_wals d) (Some (mkCd FlagNone [] false))).
Proof. reflexivity. Qed.

Lemma fs_comp_written d c m :
  k_comp d = Some c ->
  fs_apply d (OCompWritten m) = Some (mkDisk (k_tabs d) (k_wals d) (Some (mkCd (cd_flag c) m true))).
Proof. intros E. unfold fs_apply. rewrite E. reflexivity. Qed.

Lemma fs_comp_flag d c f :
  k_comp d = Some c ->
  fs_apply d (OCompFlag f) = Some (mkDisk (k_tabs d) (k_wals d) (Some (mkCd f (cd_merged c) (cd_complete c)))).
Proof. intros E. unfold fs_apply. rewrite E. reflexivity. Qed.

Lemma fs_comp_damage d fl m c :
  k_comp d = Some (mkCd fl m c) -> (forall l, fl <> FlagGood l) ->
  fs_apply d OCompDamage = Some (mkDisk (k_tabs d) (k_wals d) (Some (mkCd fl [] false))).
Proof. intros E H. unfold fs_apply. rewrite E. destruct fl; try reflexivity. destruct (H inputs eq_refl). Qed.

Lemma fs_comp_gone d c : k_comp d = Some c -> fs_apply d OCompGone = Some (mkDisk (k_tabs d) (k_wals d) None).
Proof. intros E. unfold fs_apply. rewrite E. reflexivity. Qed.

Lemma fs_wal_clear d : fs_apply d OWalClear = Some (mkDisk (k_tabs d) [] (k_comp d)).
Proof. reflexivity. Qed.

Lemma inputs_of_cong d d' : k_comp d' = k_comp d -> inputs_of d' = inputs_of d.
Proof. intros H. unfold inputs_of. rewrite H. reflexivity. Qed.

Lemma DInv_tabs d ts :
  DInv d -> gsorted ts -> Forall (fun t => lsorted (t_data t)) ts ->
  (forall t, In t ts -> is_half t = true -> mem_gen (t_gen t) (inputs_of d) = true) ->
  DInv (mkDisk ts (k_wals d) (k_comp d)).
Proof. intros [H1 H2 H3 H4 H5 H6] Hs Hd Hh. constructor; auto. Qed.

Lemma DInv_wals d ws : DInv d -> wsorted ws -> DInv (mkDisk (k_tabs d) ws (k_comp d)).
Proof. intros [H1 H2 H3 H4 H5 H6] Hw. constructor; auto. Qed.

(* a table recovery does not look at may change and go *)
Definition dead (l : list N) (ts : list tdir) (g : N) : Prop :=
  forall t, In t ts -> t_gen t = g -> liveb l t = false.

Lemma dead_input l ts g : In g l -> dead l ts g.
Proof. intros H t _ E. unfold liveb, notin. rewrite E, (proj2 (mem_gen_In g l) H). reflexivity. Qed.

Lemma dead_incomplete l ts g : (forall t, In t ts -> t_gen t = g -> is_complete t = false) -> dead l ts g.
Proof. intros H t Ht E. unfold liveb. rewrite (H t Ht E). apply andb_false_r. Qed.

Lemma liveb_unlink l g b t : liveb l (unlink_at g b t) = true -> unlink_at g b t = t.
Proof.
  intros H. apply andb_prop in H. destruct H as [_ H]. revert H. unfold unlink_at.
  destruct (has_gen g t); [|reflexivity]. destruct b; [discriminate|].
  destruct (t_state t); try reflexivity; discriminate.
Qed.

Lemma dead_unlink l ts g b : dead l ts g -> dead l (map (unlink_at g b) ts) g.
Proof.
  intros Hd t Ht E. apply in_map_iff in Ht. destruct Ht as (y & <- & Hy). rewrite unlink_at_gen in E.
  destruct (liveb l (unlink_at g b y)) eqn:El; [|reflexivity].
  rewrite (liveb_unlink _ _ _ _ El) in El. rewrite (Hd y Hy E) in El. discriminate.
Qed.

Lemma dead_remove l ts g g' : dead l ts g -> dead l (remove_tab g' ts) g.
Proof. intros Hd t Ht. apply filter_In in Ht. apply Hd, Ht. Qed.

Lemma live_unlink l ts g b : dead l ts g -> live l (map (unlink_at g b) ts) = live l ts.
Proof.
  intros Hd. apply filter_map_id; intros t Ht; destruct (N.eq_dec (t_gen t) g) as [E|E];
    try (rewrite unlink_at_other by exact E; reflexivity).
  - rewrite (Hd t Ht E). apply (dead_unlink l ts g b Hd); [apply in_map, Ht|]. rewrite unlink_at_gen. exact E.
  - rewrite (Hd t Ht E). discriminate.
Qed.

Lemma live_gone l ts g : dead l ts g -> live l (remove_tab g ts) = live l ts.
Proof.
  intros Hd. unfold live, remove_tab. rewrite filter_filter. apply filter_ext_in. intros t Ht.
  destruct (has_gen_spec g t) as [E|E]; simpl; [|reflexivity]. symmetry. apply Hd; assumption.
Qed.

Lemma live_mkdir l ts g x : live l (insert_tab (mkT g TPartial x) ts) = live l ts.
Proof. apply filter_insert_false. apply andb_false_r. Qed.

Lemma live_complete l ts g data t :
  gsorted ts -> find_tab g ts = Some t -> is_complete t = false ->
  (forall t, In t ts -> t_gen t <= g) -> ~ In g l ->
  live l (map (complete_at g data) ts) = live l ts ++ [mkT g TComplete data].
Proof.
  intros Hs Hf Hp Hmax Hin. destruct (gsorted_last _ _ _ Hs Hf Hmax) as (ts0 & -> & Hlt).
  apply find_tab_some in Hf. destruct Hf as [_ Hg].
  unfold live. rewrite (map_complete_at_last g data ts0 t Hlt Hg), !filter_app. simpl.
  replace (liveb l t) with false by (unfold liveb; rewrite Hp; symmetry; apply andb_false_r).
  replace (liveb l (mkT g TComplete data)) with true; [rewrite app_nil_r; reflexivity|].
  unfold liveb, notin. simpl. rewrite (proj2 (mem_gen_false g l) Hin). reflexivity.
Qed.

Lemma step_tabs d ts :
  DInv d -> gsorted ts -> Forall (fun t => lsorted (t_data t)) ts ->
  (forall t, In t ts -> is_half t = true -> mem_gen (t_gen t) (inputs_of d) = true) ->
  live (inputs_of d) ts = live (inputs_of d) (k_tabs d) ->
  let d' := mkDisk ts (k_wals d) (k_comp d) in DInv d' /\ ctabs d' = ctabs d.
Proof.
  intros Hi Hs Hd Hh Hl d'. assert (DInv d') as Hi' by (apply DInv_tabs; assumption).
  split; [exact Hi'|]. apply ctabs_of_live; [apply Hi|exact Hs|exact Hl].
Qed.

Lemma step_mkdir d g :
  DInv d -> find_tab g (k_tabs d) = None ->
  let d' := mkDisk (insert_tab (mkT g TPartial []) (k_tabs d)) (k_wals d) (k_comp d) in
  DInv d' /\ ctabs d' = ctabs d.
Proof.
  intros Hi Hf. apply step_tabs; [exact Hi|apply gsorted_insert; [apply Hi|exact Hf]| | |apply live_mkdir].
  - apply Forall_insert; [apply lsorted_nil|apply Hi].
  - intros t Ht Hh. apply In_insert in Ht. destruct Ht as [->|Ht]; [discriminate|].
    apply (di_half d Hi t Ht Hh).
Qed.

(* an unlink that keeps the metadata leaves the table half removed, which [di_half] allows for inputs only *)
Lemma step_unlink d g b :
  DInv d -> dead (inputs_of d) (k_tabs d) g -> (b = false -> In g (inputs_of d)) ->
  let d' := mkDisk (map (unlink_at g b) (k_tabs d)) (k_wals d) (k_comp d) in
  DInv d' /\ ctabs d' = ctabs d.
Proof.
  intros Hi Hd Hb. apply step_tabs; [exact Hi|apply gsorted_map; [apply unlink_at_gen|apply Hi]| | |apply live_unlink, Hd].
  - apply Forall_map. eapply Forall_impl; [|apply Hi]. intros t Ht. rewrite unlink_at_data. exact Ht.
  - intros t Ht Hh. apply in_map_iff in Ht. destruct Ht as (y & <- & Hy). rewrite unlink_at_gen.
    unfold unlink_at in Hh. destruct (has_gen_spec g y) as [E|E]; [|apply (di_half d Hi y Hy Hh)].
    destruct b; [discriminate|]. rewrite E. apply mem_gen_In, Hb. reflexivity.
Qed.

Lemma step_gone d g :
  DInv d -> dead (inputs_of d) (k_tabs d) g ->
  let d' := mkDisk (remove_tab g (k_tabs d)) (k_wals d) (k_comp d) in
  DInv d' /\ ctabs d' = ctabs d.
Proof.
  intros Hi Hd. apply step_tabs; [exact Hi|apply StronglySorted_filter, Hi|apply Forall_filter, Hi| |apply live_gone, Hd].
  intros t Ht Hh. apply filter_In in Ht. apply (di_half d Hi t (proj1 Ht) Hh).
Qed.

Lemma step_complete d g data t0 :
  DInv d -> find_tab g (k_tabs d) = Some t0 -> is_complete t0 = false ->
  (forall t, In t (k_tabs d) -> t_gen t <= g) -> (forall i, In i (inputs_of d) -> i < g) -> lsorted data ->
  let d' := mkDisk (map (complete_at g data) (k_tabs d)) (k_wals d) (k_comp d) in
  DInv d' /\ ctabs d' = ctabs d ++ [mkT g TComplete data].
Proof.
  intros Hi Hf Hp Hmax Hin Hd d'. assert (DInv d') as Hi'.
  { apply DInv_tabs; [exact Hi|apply gsorted_map; [apply complete_at_gen|apply Hi]| |].
    - apply Forall_map. eapply Forall_impl; [|apply Hi]. intros t Ht. unfold complete_at.
      destruct (has_gen g t); [exact Hd|exact Ht].
    - intros t Ht Hh. apply in_map_iff in Ht. destruct Ht as (y & <- & Hy). rewrite complete_at_gen.
      unfold complete_at in Hh. destruct (has_gen g y); [discriminate|]. apply (di_half d Hi y Hy Hh). }
  split; [exact Hi'|].
  assert (forall l, (forall i, In i l -> i < g) ->
          live l (k_tabs d') = live l (k_tabs d) ++ [mkT g TComplete data]) as Hl.
  { intros l Hlt. apply (live_complete l _ g data t0 (di_gs _ Hi) Hf Hp Hmax).
    intros H. apply (N.lt_irrefl g), Hlt, H. }
  destruct (comp_cases d) as [H0 _|g0 rest m c Ec Ein _].
  - rewrite (ctabs_nil d H0), (ctabs_nil d' H0). apply (Hl []). intros i [].
  - rewrite Ein in Hin. rewrite (ctabs_flag d _ _ _ _ (di_gs _ Hi) Ec), (ctabs_flag d' _ _ _ _ (di_gs _ Hi') Ec).
    cbv zeta. rewrite (Hl _ Hin). destruct c; [|reflexivity].
    apply insert_tab_app_last, Hin. left. reflexivity.
Qed.

Lemma step_rename d g0 rest m c :
  DInv d -> k_comp d = Some (mkCd (FlagGood (g0 :: rest)) m c) ->
  (forall t, In t (k_tabs d) -> ~ In (t_gen t) (g0 :: rest)) ->
  let d' := mkDisk (insert_tab (mkT g0 (if c then TComplete else TPartial) m) (k_tabs d)) (k_wals d) None in
  find_tab g0 (k_tabs d) = None /\ DInv d' /\ ctabs d' = ctabs d.
Proof.
  intros Hi Ec Hnot d'. pose proof (inputs_of_flag _ _ _ _ Ec) as Ein.
  assert (find_tab g0 (k_tabs d) = None) as Hf.
  { apply find_tab_none. intros t Ht E. apply (Hnot t Ht). left. auto. }
  split; [exact Hf|]. split.
  - destruct Hi as [H1 H2 H3 H4 H5 H6]. constructor; cbn [d' k_tabs k_wals k_comp]; try discriminate; auto.
    + apply gsorted_insert; assumption.
    + apply Forall_insert; [apply (H4 _ Ec)|exact H3].
    + intros t Ht Hh. apply In_insert in Ht. destruct Ht as [->|Ht]; [destruct c; discriminate|].
      apply H5, mem_gen_In in Hh; [|exact Ht]. rewrite Ein in Hh. destruct (Hnot t Ht Hh).
  - rewrite (ctabs_nil d') by reflexivity. unfold ctabs.
    destruct (comp_cases d) as [H0 _|? ? ? ? Ec' _ ->]; [rewrite Ein in H0; discriminate|].
    rewrite Ec in Ec'. injection Ec' as <- <- <- <-.
    rewrite (filter_all_true (notin (g0 :: rest))); [reflexivity|]. apply Forall_forall. intros t Ht.
    apply negb_true_iff, mem_gen_false, Hnot, Ht.
Qed.

(* a WAL file is in [k_wals] only once it holds a record *)
Definition wfile (n : N) (recs : list mutation) : list (N * list mutation) :=
  match recs with [] => [] | _ => [(n, recs)] end.

Lemma wfile_records n recs : flat_map snd (wfile n recs) = recs.
Proof. destruct recs; [reflexivity|]. apply (app_nil_r (_ :: _)). Qed.

Lemma fs_wal_remove_head d w ws :
  wsorted (k_wals d) -> k_wals d = w :: ws ->
  fs_apply d (OWalRemove (fst w)) = Some (mkDisk (k_tabs d) ws (k_comp d)).
Proof.
  intros Hs E. unfold fs_apply, wsorted in *. rewrite E in *. simpl in *. rewrite N.eqb_refl. simpl.
  apply StronglySorted_inv in Hs. destruct Hs as [_ Hlt]. rewrite Forall_map in Hlt.
  rewrite filter_all_true; [reflexivity|]. eapply Forall_impl; [|exact Hlt].
  intros x Hx. simpl in Hx. destruct (N.eqb_spec (fst x) (fst w)); [lia|reflexivity].
Qed.

Lemma disk_eta d : mkDisk (k_tabs d) (k_wals d) (k_comp d) = d.
Proof. destruct d; reflexivity. Qed.

Lemma append_shape d F n cf m :
  k_wals d = F ++ wfile n cf -> (forall w, In w F -> fst w < n) ->
  fs_apply d (OWalAppend n m) = Some (mkDisk (k_tabs d) (F ++ wfile n (cf ++ [m])) (k_comp d)).
Proof.
  intros Hw HF. unfold fs_apply. replace (wfile n (cf ++ [m])) with [(n, cf ++ [m])] by (destruct cf; reflexivity).
  destruct cf as [|c cf]; simpl in Hw.
  - rewrite app_nil_r in Hw. rewrite Hw. destruct (rev F) as [|[n' recs] older] eqn:E.
    + rewrite <- (rev_involutive F), E. reflexivity.
    + assert (In (n', recs) F) as Hin by (apply in_rev; rewrite E; left; reflexivity).
      specialize (HF _ Hin). simpl in HF.
      destruct (N.eqb_spec n' n); [lia|]. destruct (N.ltb_spec n' n); [reflexivity|lia].
  - rewrite Hw, rev_app_distr. simpl. rewrite N.eqb_refl, rev_involutive. reflexivity.
Qed.

Lemma append_all_shape ms : forall d F n cf,
  k_wals d = F ++ wfile n cf -> (forall w, In w F -> fst w < n) ->
  append_all d n ms = Some (mkDisk (k_tabs d) (F ++ wfile n (cf ++ ms)) (k_comp d)).
Proof.
  induction ms as [|m ms IH]; intros d F n cf Hw HF; cbn [append_all].
  - rewrite app_nil_r, <- Hw, disk_eta. reflexivity.
  - rewrite (append_shape d F n cf m Hw HF), (IH _ F n (cf ++ [m])); [|reflexivity|exact HF].
    rewrite <- app_assoc. reflexivity.
Qed.

Lemma wsorted_wfile n x : wsorted (wfile n x).
Proof. destruct x; repeat constructor. Qed.

Lemma wsorted_shape F n x : wsorted F -> (forall w, In w F -> fst w < n) -> wsorted (F ++ wfile n x).
Proof.
  intros Hs HF. unfold wsorted. rewrite map_app. apply StronglySorted_app. split; [exact Hs|].
  split; [apply wsorted_wfile|]. intros a b Ha Hb. apply in_map_iff in Ha. destruct Ha as (w & <- & Hw).
  destruct x; simpl in Hb; [contradiction|]. destruct Hb as [<-|[]]. apply HF, Hw.
Qed.

(* without a readable flag no table is half removed: the compaction directory may become any well-formed one *)
Lemma DInv_comp d kc :
  DInv d -> inputs_of d = [] -> (forall c, kc = Some c -> lsorted (cd_merged c)) ->
  (forall l m c, kc = Some (mkCd (FlagGood l) m c) -> l <> [] /\ NoDup l) ->
  DInv (mkDisk (k_tabs d) (k_wals d) kc).
Proof.
  intros Hi H0 Hm Hf. pose proof (inputs_nil_nohalf d Hi H0) as Hnh. destruct Hi as [H1 H2 H3 H4 H5 H6].
  constructor; auto. intros t Ht Hh. rewrite (Hnh t Ht) in Hh. discriminate.
Qed.

Lemma step_comp_noflag d kc :
  DInv d -> inputs_of d = [] -> (forall c, kc = Some c -> lsorted (cd_merged c)) ->
  (forall l m c, kc <> Some (mkCd (FlagGood l) m c)) ->
  let d' := mkDisk (k_tabs d) (k_wals d) kc in DInv d' /\ ctabs d' = ctabs d.
Proof.
  intros Hi H0 Hm Hng d'. split.
  - apply DInv_comp; auto. intros l m c E. destruct (Hng _ _ _ E).
  - rewrite (ctabs_nil d H0). apply (ctabs_nil d'). unfold inputs_of, d'. cbn [k_comp].
    destruct kc as [[[| |l] m c]|]; try reflexivity. destruct (Hng l m c eq_refl).
Qed.

(* tombstones go only if no older table [P] stays below the run *)
Definition mk_merged (P : list tdir) (u : ltable) : ltable :=
  match P with [] => drop_tombstones u | _ => keep_tombstones u end.

Lemma mk_merged_sorted P u : lsorted u -> lsorted (mk_merged P u).
Proof. intros H. destruct P; simpl; [apply drop_sorted|apply keep_sorted]; exact H. Qed.

(* the success flag becomes readable: the merged table stands for the run [I] *)
Lemma flag_view P I X g0 merged k :
  Forall (fun t => lsorted (t_data t)) I -> merged = mk_merged P (lt_union (map t_data I)) ->
  tabs_get (P ++ mkT g0 TComplete merged :: X) k = tabs_get (P ++ I ++ X) k.
Proof.
  intros Hs ->. unfold tabs_get. rewrite !reads_as_eff.
  rewrite (tables_get_mid (map _ (P ++ _ :: X)) (tpairs P) [(g0, mk_merged P (lt_union (map t_data I)))] (tpairs X)),
          (tables_get_mid (map _ (P ++ I ++ X)) (tpairs P) (tpairs I) (tpairs X))
    by (unfold tpairs; rewrite !map_app; reflexivity).
  apply eff_orelse_cong. rewrite tables_get_one.
  assert (Forall (fun t => lsorted (snd t)) (tpairs I)) as Hs' by (apply Forall_map; exact Hs).
  replace (map t_data I) with (map snd (tpairs I)) by apply map_map.
  destruct P as [|p P]; simpl mk_merged.
  - apply (union_eff true _ k _ Hs'). intros _. apply tables_get_nil.
  - apply (union_eff false _ k _ Hs'). discriminate.
Qed.

Lemma step_flag_good d P I X g0 rest fl merged :
  DInv d -> inputs_of d = [] -> ctabs d = P ++ I ++ X -> map t_gen I = g0 :: rest ->
  k_comp d = Some (mkCd fl merged true) ->
  let d' := mkDisk (k_tabs d) (k_wals d) (Some (mkCd (FlagGood (g0 :: rest)) merged true)) in
  DInv d' /\ ctabs d' = P ++ mkT g0 TComplete merged :: X.
Proof.
  intros Hi H0 Hct HI Ec d'.
  pose proof (gsorted_ctabs d Hi) as Hgs. rewrite Hct in Hgs.
  destruct (StronglySorted_mid _ _ _ _ Hgs) as (HsI & HP & HX).
  assert (DInv d') as Hi'.
  { apply DInv_comp; [exact Hi|exact H0| |].
    - intros c [= <-]. apply (di_merged d Hi _ Ec).
    - intros l m c [= <- _ _]. split; [discriminate|]. rewrite <- HI. apply nsorted_NoDup, gsorted_nsorted, HsI. }
  split; [exact Hi'|]. rewrite (ctabs_flag d' g0 rest merged true (di_gs _ Hi') eq_refl). cbv zeta.
  cbn [d' k_tabs]. unfold live.
  rewrite (filter_ext _ (fun t => is_complete t && notin (g0 :: rest) t)) by (intros t; apply andb_comm).
  rewrite <- filter_filter, <- (ctabs_nil d H0), Hct. unfold notin.
  rewrite <- HI, (filter_out_run t_gen) by (apply gsorted_nsorted, Hgs).
  destruct I as [|i0 I']; [discriminate|]. injection HI as Eg0 _.
  apply insert_tab_mid; simpl; intros t Ht; rewrite <- Eg0.
  - apply HP; [exact Ht|left; reflexivity].
  - apply HX; [left; reflexivity|exact Ht].
Qed.
