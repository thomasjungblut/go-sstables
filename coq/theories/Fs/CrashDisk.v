(* Table lists ordered by generation, the disk invariant [DInv], and [ctabs] in terms of the
   tables recovery looks at ([live]). *)
From Coq Require Import Lia Sorting.Sorted.
From GoSST Require Import Base.Bytes Db.LogicalFacts Base.ListFacts Fs.Crash Fs.CrashKv.
Local Open Scope N_scope.

Lemma mem_gen_In g l : mem_gen g l = true <-> In g l.
Proof.
  unfold mem_gen. rewrite existsb_exists. split.
  - intros (x & Hx & E). apply N.eqb_eq in E. subst. exact Hx.
  - intros H. exists g. split; [exact H|apply N.eqb_refl].
Qed.

Lemma mem_gen_false g l : mem_gen g l = false <-> ~ In g l.
Proof. rewrite <- mem_gen_In. destruct (mem_gen g l); split; congruence. Qed.

Definition nsorted (l : list N) : Prop := StronglySorted N.lt l.

Lemma nsorted_NoDup l : nsorted l -> NoDup l.
Proof.
  induction 1 as [|x l _ IH Hall]; constructor; [|exact IH].
  intros Hin. rewrite Forall_forall in Hall. specialize (Hall x Hin). lia.
Qed.

Lemma filter_out_run {A} (f : A -> N) pre run post :
  nsorted (map f (pre ++ run ++ post)) ->
  filter (fun t => negb (mem_gen (f t) (map f run))) (pre ++ run ++ post) = pre ++ post.
Proof.
  rewrite !map_app. intros Hs. apply StronglySorted_mid in Hs. destruct Hs as (_ & HP & HX).
  rewrite !filter_app, (filter_all_false _ run), (filter_all_true _ pre), (filter_all_true _ post); [reflexivity| | |];
    apply Forall_forall; intros t Ht; apply (in_map f) in Ht.
  - apply negb_true_iff, mem_gen_false. intros Hi. specialize (HX _ _ Hi Ht). lia.
  - apply negb_true_iff, mem_gen_false. intros Hi.
    assert (f t < f t) by apply (HP _ _ Ht Hi). lia.
  - apply negb_false_iff, mem_gen_In. exact Ht.
Qed.

Lemma filter_run pre g0 rest post :
  nsorted (pre ++ (g0 :: rest) ++ post) ->
  filter (fun g => negb (mem_gen g rest)) (pre ++ (g0 :: rest) ++ post) = pre ++ g0 :: post.
Proof.
  intros Hs. pose proof (filter_out_run (fun g => g) (pre ++ [g0]) rest post) as H.
  rewrite !map_id, <- !app_assoc in H. apply H, Hs.
Qed.

Definition glt (a b : tdir) : Prop := t_gen a < t_gen b.
Definition gsorted (ts : list tdir) : Prop := StronglySorted glt ts.

Lemma gsorted_nsorted ts : gsorted ts <-> nsorted (map t_gen ts).
Proof. symmetry. exact (StronglySorted_map N.lt t_gen ts). Qed.

Lemma gsorted_map f ts : (forall t, t_gen (f t) = t_gen t) -> gsorted ts -> gsorted (map f ts).
Proof. intros Hf Hs. apply gsorted_nsorted. rewrite map_map, (map_ext _ _ Hf). apply gsorted_nsorted, Hs. Qed.

Lemma gsorted_unique ts a b : gsorted ts -> In a ts -> In b ts -> t_gen a = t_gen b -> a = b.
Proof.
  induction ts as [|x r IH]; intros Hs Ha Hb E; [contradiction|].
  apply StronglySorted_inv in Hs. destruct Hs as [Hr Hx]. rewrite Forall_forall in Hx. unfold glt in Hx.
  destruct Ha as [<-|Ha], Hb as [<-|Hb]; auto.
  - specialize (Hx _ Hb). lia.
  - specialize (Hx _ Ha). lia.
Qed.

Lemma In_insert y t ts : In y (insert_tab t ts) <-> y = t \/ In y ts.
Proof.
  induction ts as [|x r IH]; simpl.
  - split; intros [->|[]]; auto.
  - destruct (t_gen t <? t_gen x); simpl.
    + split; intros [->|H]; auto.
    + split.
      * intros [->|H]; [auto|]. apply IH in H. destruct H; auto.
      * intros [->|[->|H]]; [right; apply IH; auto|auto|right; apply IH; auto].
Qed.

Lemma Forall_insert (P : tdir -> Prop) t ts : P t -> Forall P ts -> Forall P (insert_tab t ts).
Proof.
  intros Ht Hts. apply Forall_forall. intros x Hx. apply In_insert in Hx. destruct Hx as [->|Hx]; [exact Ht|].
  exact (proj1 (Forall_forall _ _) Hts x Hx).
Qed.

Lemma insert_tab_mid M pre post :
  (forall t, In t pre -> t_gen t < t_gen M) -> (forall t, In t post -> t_gen M < t_gen t) ->
  insert_tab M (pre ++ post) = pre ++ M :: post.
Proof.
  intros HP HX. induction pre as [|p pre IH]; simpl.
  - destruct post as [|x post]; simpl; [reflexivity|].
    destruct (N.ltb_spec (t_gen M) (t_gen x)); [reflexivity|]. specialize (HX x (or_introl eq_refl)). lia.
  - destruct (N.ltb_spec (t_gen M) (t_gen p)); [specialize (HP p (or_introl eq_refl)); lia|].
    f_equal. apply IH. intros t Ht. apply HP. right. exact Ht.
Qed.

Lemma insert_tab_app_last t l c : t_gen t < t_gen c -> insert_tab t (l ++ [c]) = insert_tab t l ++ [c].
Proof.
  intros H. induction l as [|x l IH]; simpl.
  - destruct (N.ltb_spec (t_gen t) (t_gen c)); [reflexivity|lia].
  - destruct (t_gen t <? t_gen x); [reflexivity|]. rewrite IH. reflexivity.
Qed.

Lemma filter_insert_false p t ts : p t = false -> filter p (insert_tab t ts) = filter p ts.
Proof.
  intros Hp. induction ts as [|x r IH]; simpl; [rewrite Hp; reflexivity|].
  destruct (t_gen t <? t_gen x); simpl; [rewrite Hp|rewrite IH]; reflexivity.
Qed.

Lemma filter_insert_true p t ts :
  gsorted ts -> p t = true -> filter p (insert_tab t ts) = insert_tab t (filter p ts).
Proof.
  intros Hs Hp. induction ts as [|x r IH]; simpl; [rewrite Hp; reflexivity|].
  apply StronglySorted_inv in Hs. destruct Hs as [Hr Hx].
  destruct (N.ltb_spec (t_gen t) (t_gen x)) as [Hlt|Hge]; simpl.
  - rewrite Hp. symmetry. apply (insert_tab_mid t [] (filter p (x :: r))); [intros y []|].
    intros y Hy. apply filter_In in Hy. destruct Hy as [[<-|Hy] _]; [exact Hlt|].
    rewrite Forall_forall in Hx. specialize (Hx y Hy). unfold glt in Hx. lia.
  - rewrite (IH Hr). destruct (p x); [|reflexivity]. simpl.
    destruct (N.ltb_spec (t_gen t) (t_gen x)); [lia|reflexivity].
Qed.

Lemma find_tab_none g ts : find_tab g ts = None <-> forall t, In t ts -> t_gen t <> g.
Proof.
  unfold find_tab. split.
  - intros H t Ht. apply N.eqb_neq. apply (find_none _ _ H t Ht).
  - intros H. apply find_all_false, Forall_forall. intros t Ht. apply N.eqb_neq. auto.
Qed.

Lemma find_tab_some g ts t : find_tab g ts = Some t -> In t ts /\ t_gen t = g.
Proof. intros E. apply find_some in E. destruct E as [Ht Hg]. apply N.eqb_eq in Hg. auto. Qed.

Lemma find_tab_In g ts t : gsorted ts -> In t ts -> t_gen t = g -> find_tab g ts = Some t.
Proof.
  intros Hs Ht Hg. destruct (find_tab g ts) as [t'|] eqn:E.
  - apply find_tab_some in E. destruct E as [Ht' Hg']. f_equal.
    eapply gsorted_unique; eauto. congruence.
  - exfalso. rewrite find_tab_none in E. eapply E; eassumption.
Qed.

Lemma gsorted_insert t ts : gsorted ts -> find_tab (t_gen t) ts = None -> gsorted (insert_tab t ts).
Proof.
  intros Hs Hn. rewrite find_tab_none in Hn. induction ts as [|x r IH]; simpl.
  - constructor; constructor.
  - apply StronglySorted_inv in Hs. destruct Hs as [Hr Hx]. rewrite Forall_forall in Hx. unfold glt in Hx.
    assert (t_gen x <> t_gen t) by (apply Hn; left; reflexivity).
    destruct (N.ltb_spec (t_gen t) (t_gen x)) as [Hlt|Hge]; constructor.
    + constructor; [assumption|apply Forall_forall; exact Hx].
    + apply Forall_forall. intros y [<-|Hy]; [exact Hlt|]. specialize (Hx y Hy). unfold glt. lia.
    + apply IH; [exact Hr|]. intros y Hy. apply Hn. right. exact Hy.
    + apply Forall_insert; [unfold glt; lia|apply Forall_forall; exact Hx].
Qed.

Lemma gsorted_last ts t g :
  gsorted ts -> find_tab g ts = Some t -> (forall x, In x ts -> t_gen x <= g) ->
  exists ts0, ts = ts0 ++ [t] /\ forall x, In x ts0 -> t_gen x < g.
Proof.
  intros Hs Hf Hmax. apply find_tab_some in Hf. destruct Hf as [Ht <-].
  apply in_split in Ht. destruct Ht as (a & b & ->).
  apply StronglySorted_app in Hs. destruct Hs as (_ & Hb & Hab). destruct b as [|y b].
  - exists a. split; [reflexivity|]. intros x Hx. apply Hab; [exact Hx|left; reflexivity].
  - exfalso. apply StronglySorted_inv in Hb. destruct Hb as [_ Hy]. apply Forall_inv in Hy. unfold glt in Hy.
    assert (t_gen y <= t_gen t) by (apply Hmax; apply in_or_app; right; right; left; reflexivity). lia.
Qed.

Lemma fold_max_ge l : forall a, a <= fold_left N.max l a /\ forall x, In x l -> x <= fold_left N.max l a.
Proof.
  induction l as [|y l IH]; intros a; simpl.
  - split; [lia|]. intros x [].
  - destruct (IH (N.max a y)) as [H1 H2]. split; [lia|].
    intros x [<-|Hx]; [lia|]. apply H2. exact Hx.
Qed.

Lemma max_gen_ge ts t : In t ts -> t_gen t <= max_gen ts.
Proof. intros H. apply (proj2 (fold_max_ge (map t_gen ts) 0)). apply in_map. exact H. Qed.

Definition wnums (ws : list (N * list mutation)) : list N := map fst ws.
Definition wsorted (ws : list (N * list mutation)) : Prop := StronglySorted N.lt (map fst ws).

Definition inputs_of (d : disk) : list N :=
  match k_comp d with Some (mkCd (FlagGood l) _ _) => l | _ => [] end.

(* the tables recovery looks at beside the merged one *)
Definition notin (l : list N) (t : tdir) : bool := negb (mem_gen (t_gen t) l).
Definition liveb (l : list N) (t : tdir) : bool := notin l t && is_complete t.
Definition live (l : list N) (ts : list tdir) : list tdir := filter (liveb l) ts.

(* [di_half]: a table is half removed only as an input of a compaction whose flag is readable; recovery removes
   those, any other would make Open fail *)
Record DInv (d : disk) : Prop := {
  di_gs : gsorted (k_tabs d);
  di_ws : wsorted (k_wals d);
  di_data : Forall (fun t => lsorted (t_data t)) (k_tabs d);
  di_merged : forall c, k_comp d = Some c -> lsorted (cd_merged c);
  di_half : forall t, In t (k_tabs d) -> is_half t = true -> mem_gen (t_gen t) (inputs_of d) = true;
  di_flag : forall l m c, k_comp d = Some (mkCd (FlagGood l) m c) -> l <> [] /\ NoDup l
}.

Lemma inputs_of_flag d l m c : k_comp d = Some (mkCd (FlagGood l) m c) -> inputs_of d = l.
Proof. intros E. unfold inputs_of. rewrite E. reflexivity. Qed.

Lemma inputs_of_none d : k_comp d = None -> inputs_of d = [].
Proof. intros E. unfold inputs_of. rewrite E. reflexivity. Qed.

Inductive comp_case (d : disk) : Prop :=
| CompDiscard : inputs_of d = [] -> finish_comp d = k_tabs d -> comp_case d
| CompFinish g0 rest m c :
    k_comp d = Some (mkCd (FlagGood (g0 :: rest)) m c) -> inputs_of d = g0 :: rest ->
    finish_comp d = insert_tab (mkT g0 (if c then TComplete else TPartial) m) (filter (notin (g0 :: rest)) (k_tabs d)) ->
    comp_case d.

Lemma comp_cases d : comp_case d.
Proof.
  destruct (k_comp d) as [[[| |[|g0 rest]] m c]|] eqn:E;
    [| | |apply (CompFinish d g0 rest m c E)|]; try apply CompDiscard;
    unfold inputs_of, finish_comp; rewrite E; reflexivity.
Qed.

Lemma ctabs_nil d : inputs_of d = [] -> ctabs d = filter is_complete (k_tabs d).
Proof.
  intros H. unfold ctabs. destruct (comp_cases d) as [_ ->|g0 rest m c _ E _]; [reflexivity|].
  rewrite E in H. discriminate.
Qed.

Lemma ctabs_flag d g0 rest m c :
  gsorted (k_tabs d) -> k_comp d = Some (mkCd (FlagGood (g0 :: rest)) m c) ->
  ctabs d = let l := live (g0 :: rest) (k_tabs d) in if c then insert_tab (mkT g0 TComplete m) l else l.
Proof.
  intros Hs Ec. unfold ctabs, finish_comp, live. rewrite Ec. destruct c; cbv zeta.
  - rewrite filter_insert_true; [|apply StronglySorted_filter, Hs|reflexivity]. rewrite filter_filter. reflexivity.
  - rewrite filter_insert_false by reflexivity. apply filter_filter.
Qed.

Lemma ctabs_of_live d ts ws :
  gsorted (k_tabs d) -> gsorted ts -> live (inputs_of d) ts = live (inputs_of d) (k_tabs d) ->
  ctabs (mkDisk ts ws (k_comp d)) = ctabs d.
Proof.
  intros H1 H2 H3. destruct (comp_cases d) as [H0 _|g0 rest m c Ec Ein _]; rewrite ?H0, ?Ein in H3.
  - rewrite (ctabs_nil d H0). apply (eq_trans (ctabs_nil (mkDisk ts ws (k_comp d)) H0)), H3.
  - rewrite (ctabs_flag d _ _ _ _ H1 Ec), (ctabs_flag (mkDisk ts ws (k_comp d)) _ _ _ _ H2 Ec). cbn [k_tabs].
    rewrite H3. reflexivity.
Qed.

Lemma inputs_nil_nohalf d : DInv d -> inputs_of d = [] -> forall t, In t (k_tabs d) -> is_half t = false.
Proof.
  intros Hi H0 t Ht. destruct (is_half t) eqn:Eh; [|reflexivity].
  pose proof (di_half d Hi t Ht Eh) as Hm. rewrite H0 in Hm. discriminate.
Qed.

Lemma DInv_nohalf d : DInv d -> nohalf d.
Proof.
  intros H. apply existsb_all_false, Forall_forall. intros t Ht.
  destruct (is_half t) eqn:Eh; [|reflexivity]. exfalso.
  destruct (comp_cases d) as [H0 Ef|g0 rest m c _ Ein Ef]; rewrite Ef in Ht.
  - rewrite (inputs_nil_nohalf d H H0 t Ht) in Eh. discriminate.
  - apply In_insert in Ht. destruct Ht as [->|Ht]; [destruct c; discriminate|].
    apply filter_In in Ht. destruct Ht as [Ht Hn]. unfold notin in Hn.
    rewrite <- Ein, (di_half d H t Ht Eh) in Hn. discriminate.
Qed.

Lemma DInv_view d : DInv d -> exists m, view d = Some m /\ kv_eq m (dview d).
Proof. intros H. apply view_dview, DInv_nohalf, H. Qed.

Lemma DInv_recover d : DInv d -> recover d = Some (mkDisk (ctabs d ++ newtab d) [] None).
Proof. intros H. apply recover_nohalf, DInv_nohalf, H. Qed.

Lemma gsorted_ctabs d : DInv d -> gsorted (ctabs d).
Proof.
  intros Hi. apply StronglySorted_filter. destruct (comp_cases d) as [_ ->|g0 rest m c _ _ ->]; [apply Hi|].
  apply gsorted_insert; [apply StronglySorted_filter, Hi|]. apply find_tab_none.
  intros t Ht E. apply filter_In in Ht. destruct Ht as [_ Hn]. unfold notin in Hn.
  rewrite E in Hn. simpl in Hn. rewrite N.eqb_refl in Hn. discriminate.
Qed.

Lemma ctabs_data_sorted d : DInv d -> Forall (fun t => lsorted (t_data t)) (ctabs d).
Proof.
  intros Hi. apply Forall_filter. destruct (comp_cases d) as [_ ->|g0 rest m c Ec _ ->]; [apply Hi|].
  apply Forall_insert; [apply (di_merged d Hi _ Ec)|]. apply Forall_filter, Hi.
Qed.

Lemma allcomplete_ctabs d :
  k_comp d = None -> (forall t, In t (k_tabs d) -> is_complete t = true) -> ctabs d = k_tabs d.
Proof.
  intros Hc Hall. rewrite (ctabs_nil d (inputs_of_none d Hc)). apply filter_all_true, Forall_forall, Hall.
Qed.
