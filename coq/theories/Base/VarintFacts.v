(* decoding an encoding (followed by anything) returns the value and
   exactly the rest, for every value below 2^64; what the decoder accepts is a framed byte string
   (continuation bytes, then one byte below 128) and the value is read off its low seven bits. *)
From GoSST Require Import Base.Bytes Base.Varint.
From Coq Require Import Lia.
Local Open Scope N_scope.

(* a group: one base-128 digit of the value, in the low seven bits of a byte *)
Lemma group_add a c : N.lor (N.land a 127) (N.shiftl c 7) = a mod 128 + 128 * c.
Proof.
  assert (Hd : N.land (N.land a 127) (N.shiftl c 7) = 0).
  { apply N.bits_inj_0. intro n. rewrite !N.land_spec. change 127 with (N.ones 7).
    destruct (N.ltb_spec n 7).
    - rewrite N.shiftl_spec_low by assumption. apply andb_false_r.
    - rewrite N.ones_spec_high by assumption. rewrite andb_false_r. reflexivity. }
  rewrite <- N.lxor_lor, <- N.add_nocarry_lxor by exact Hd.
  change 127 with (N.ones 7). rewrite N.land_ones, N.shiftl_mul_pow2. apply f_equal, N.mul_comm.
Qed.

Lemma group_low a c : N.land (N.lor (N.land a 127) (N.shiftl c 7)) 127 = N.land a 127.
Proof.
  rewrite group_add. change 127 with (N.ones 7). rewrite !N.land_ones. change (2 ^ 7) with 128.
  rewrite N.mul_comm, N.mod_add, N.mod_mod by discriminate. reflexivity.
Qed.

Lemma group_high a c : N.shiftr (N.lor (N.land a 127) (N.shiftl c 7)) 7 = c.
Proof.
  rewrite group_add, N.shiftr_div_pow2. change (2 ^ 7) with 128.
  rewrite N.mul_comm, N.div_add, N.div_small by (discriminate || apply N.mod_lt; discriminate). reflexivity.
Qed.

Lemma split7 x : N.lor (N.land x 127) (N.shiftl (N.shiftr x 7) 7) = x.
Proof. rewrite group_add, N.shiftr_div_pow2, N.add_comm. symmetry. apply N.div_mod'. Qed.

Lemma cont_add x : N.lor (N.land x 127) 128 = x mod 128 + 128.
Proof. exact (group_add x 1). Qed.

Lemma low7_or128_ge x : 128 <= N.lor (N.land x 127) 128.
Proof. rewrite cont_add, N.add_comm. apply N.le_add_r. Qed.

Lemma low7_or128_lt x : N.lor (N.land x 127) 128 < 256.
Proof. rewrite cont_add. apply (proj1 (N.add_lt_mono_r (x mod 128) 128 128)), N.mod_lt. discriminate. Qed.

Lemma land127_of_or x : N.land (N.lor (N.land x 127) 128) 127 = N.land x 127.
Proof. exact (group_low x 1). Qed.

Lemma land127_small b : b < 128 -> N.land b 127 = b.
Proof. intro H. change 127 with (N.ones 7). rewrite N.land_ones. apply N.mod_small. exact H. Qed.

Lemma cont_byte c : 128 <= c -> c < 256 -> N.lor (N.land c 127) 128 = c.
Proof.
  intros H1 H2. rewrite cont_add, <- (N.mod_unique c 128 1 (c - 128)) by lia. apply N.sub_add, H1.
Qed.

Lemma shiftr7_lt x k : x < 2 ^ (k + 7) -> N.shiftr x 7 < 2 ^ k.
Proof.
  intro H. rewrite N.shiftr_div_pow2. apply N.div_lt_upper_bound; [apply N.pow_nonzero; lia|].
  rewrite <- N.pow_add_r. rewrite N.add_comm. exact H.
Qed.

Lemma uv_enc_fuel_S f x :
  uv_enc_fuel (S f) x = if x <? 128 then [x] else N.lor (N.land x 127) 128 :: uv_enc_fuel f (N.shiftr x 7).
Proof. reflexivity. Qed.

Lemma uv_enc_fuel_bytes f : forall x, Forall (fun b => b < 256) (uv_enc_fuel f x).
Proof.
  induction f as [|f IH]; intro x; [constructor|]. rewrite uv_enc_fuel_S.
  destruct (N.ltb_spec x 128) as [H|H]; constructor; [lia|constructor|apply low7_or128_lt|apply IH].
Qed.

Lemma uv_enc_bytes x : Forall (fun b => b < 256) (uv_enc x).
Proof. apply uv_enc_fuel_bytes. Qed.

Lemma uv_enc_fuel_len_le f : forall x, (length (uv_enc_fuel f x) <= f)%nat.
Proof.
  induction f as [|f IH]; intro x; [cbn; lia|]. rewrite uv_enc_fuel_S.
  destruct (x <? 128); cbn [length]; [lia|]. specialize (IH (N.shiftr x 7)). lia.
Qed.

Lemma uv_enc_len x : (1 <= length (uv_enc x) <= 10)%nat.
Proof.
  split; [|apply uv_enc_fuel_len_le].
  unfold uv_enc. rewrite uv_enc_fuel_S. destruct (x <? 128); cbn [length]; lia.
Qed.

Lemma uv_enc_fuel_len_small f : forall (k : nat) x, x < 2 ^ (7 * N.of_nat (S k)) ->
  (length (uv_enc_fuel f x) <= S k)%nat.
Proof.
  induction f as [|f IH]; intros k x Hx; [apply Nat.le_0_l|]. rewrite uv_enc_fuel_S.
  destruct (N.ltb_spec x 128) as [H|H]; cbn [length]; [apply le_n_S, Nat.le_0_l|].
  destruct k as [|k]; [destruct (N.lt_irrefl x); apply N.lt_le_trans with 128; assumption|].
  apply le_n_S, IH, shiftr7_lt. rewrite (Nat2N.inj_succ (S k)), N.mul_succ_r in Hx. exact Hx.
Qed.

Lemma uv_dec_go_cons f i acc s b tl :
  uv_dec_go (S f) i acc s (b :: tl) =
  if b <? 128 then if (i =? 9) && (1 <? b) then Err Overflow else Ok (N.lor acc (N.shiftl b s), tl)
  else uv_dec_go f (i + 1) (N.lor acc (N.shiftl (N.land b 127) s)) (s + 7) tl.
Proof. reflexivity. Qed.

(* generalised round trip: k groups may follow this byte, so 9 - k bytes are consumed and x fits in
   the remaining 7 k + 1 bits (64 at the start, one bit in the tenth byte) *)
Lemma uv_roundtrip_gen : forall (k : nat) (i acc x : N) rest,
  i + N.of_nat k = 9 -> x < 2 ^ (7 * N.of_nat k + 1) ->
  uv_dec_go (S k) i acc (7 * i) (uv_enc_fuel (S k) x ++ rest) = Ok (N.lor acc (N.shiftl x (7 * i)), rest).
Proof.
  induction k as [|k IH]; intros i acc x rest Hi Hx; rewrite uv_enc_fuel_S;
    destruct (N.ltb_spec x 128) as [Hs|Hb]; cbn [app]; rewrite uv_dec_go_cons.
  - apply N.ltb_lt in Hs. rewrite Hs.
    replace (1 <? x) with false by (symmetry; apply N.ltb_ge, N.lt_succ_r, Hx).
    rewrite andb_false_r. reflexivity.
  - destruct (N.lt_irrefl 2). apply N.lt_trans with 128; [reflexivity|].
    apply N.le_lt_trans with x; assumption.
  - apply N.ltb_lt in Hs. rewrite Hs.
    replace (i =? 9) with false; [reflexivity|]. symmetry. apply N.eqb_neq. clear - Hi. lia.
  - replace (N.lor (N.land x 127) 128 <? 128) with false by (symmetry; apply N.ltb_ge, low7_or128_ge).
    rewrite land127_of_or, N.add_1_r, <- N.mul_succ_r, IH.
    + rewrite N.mul_succ_r, (N.add_comm _ 7), <- N.shiftl_shiftl, <- N.lor_assoc, <- N.shiftl_lor, split7.
      reflexivity.
    + rewrite <- Hi, Nat2N.inj_succ, N.add_succ_l, N.add_succ_r. reflexivity.
    + apply shiftr7_lt. rewrite Nat2N.inj_succ, N.mul_succ_r, N.add_shuffle0 in Hx. exact Hx.
Qed.

Theorem uv_roundtrip x rest : x < 2 ^ 64 -> uv_dec (uv_enc x ++ rest) = Ok (x, rest).
Proof.
  intro H. unfold uv_dec, uv_enc. change 0 with (7 * 0) at 3.
  rewrite (uv_roundtrip_gen 9 0 0 x rest); [|reflexivity|exact H].
  rewrite N.lor_0_l. change (7 * 0) with 0. rewrite N.shiftl_0_r. reflexivity.
Qed.

Fixpoint framed (e : bytes) : bool :=
  match e with
  | [] => false
  | b :: t => if b <? 128 then (match t with [] => true | _ :: _ => false end) else framed t
  end.

Fixpoint uv_val (e : bytes) : N :=
  match e with [] => 0 | b :: t => N.lor (N.land b 127) (N.shiftl (uv_val t) 7) end.

Lemma uv_val_single b : b < 128 -> uv_val [b] = b.
Proof. intro H. cbn [uv_val]. rewrite N.shiftl_0_l, N.lor_0_r. apply land127_small. exact H. Qed.

Lemma framed_app_inj a : forall b x y, framed a = true -> framed b = true -> a ++ x = b ++ y -> a = b /\ x = y.
Proof.
  induction a as [|c a IH]; intros [|d b] x y Ha Hb E; try discriminate.
  injection E as -> E. cbn [framed] in Ha, Hb. destruct (d <? 128).
  - destruct a, b; try discriminate. split; [reflexivity|exact E].
  - destruct (IH b x y Ha Hb E) as [-> ->]. split; reflexivity.
Qed.

Lemma uv_dec_go_shape : forall fuel i acc s l v rest,
  uv_dec_go fuel i acc s l = Ok (v, rest) ->
  exists e, l = e ++ rest /\ framed e = true /\ v = N.lor acc (N.shiftl (uv_val e) s).
Proof.
  induction fuel as [|f IH]; intros i acc s l v rest H; cbn [uv_dec_go] in H; [discriminate|].
  destruct l as [|b t]; [destruct (i =? 0); discriminate|].
  destruct (N.ltb_spec b 128) as [Hb|Hb].
  - destruct (andb (i =? 9) (1 <? b)); [discriminate|]. injection H as <- <-.
    exists [b]. rewrite uv_val_single by exact Hb. cbn [framed]. apply N.ltb_lt in Hb. rewrite Hb. auto.
  - apply IH in H. destruct H as (e & -> & He & ->).
    exists (b :: e). cbn [app framed uv_val]. apply N.ltb_ge in Hb. rewrite Hb.
    split; [reflexivity|]. split; [exact He|].
    rewrite N.shiftl_lor, N.shiftl_shiftl, N.lor_assoc, (N.add_comm 7 s). reflexivity.
Qed.

Lemma uv_dec_shape l v rest : uv_dec l = Ok (v, rest) ->
  exists e, l = e ++ rest /\ framed e = true /\ v = uv_val e.
Proof.
  intro H. apply uv_dec_go_shape in H. destruct H as (e & Hl & He & Hv).
  rewrite N.lor_0_l, N.shiftl_0_r in Hv. exists e. auto.
Qed.

Lemma uv_enc_framed_val x : x < 2 ^ 64 -> framed (uv_enc x) = true /\ uv_val (uv_enc x) = x.
Proof.
  intro H. pose proof (uv_roundtrip x [] H) as R. apply uv_dec_shape in R.
  destruct R as (e & E & He & Hv). rewrite !app_nil_r in E. subst e. auto.
Qed.

(* a framed string may end in zero groups (80 00 for 0), which the encoder never writes: equal
   length rules that out *)
Lemma uv_enc_fuel_canon : forall e f,
  framed e = true -> Forall (fun c => c < 256) e ->
  length (uv_enc_fuel f (uv_val e)) = length e -> uv_enc_fuel f (uv_val e) = e.
Proof.
  induction e as [|a e IH]; intros f Hf HW HL; [discriminate|].
  destruct f as [|f]; [discriminate|]. apply Forall_cons_iff in HW. destruct HW as [Ha HW].
  cbn [framed uv_val] in *. rewrite uv_enc_fuel_S in *. destruct (N.ltb_spec a 128) as [Hs|Hs].
  - destruct e; [|discriminate]. cbn [uv_val]. rewrite N.shiftl_0_l, N.lor_0_r, land127_small by exact Hs.
    apply N.ltb_lt in Hs. rewrite Hs. reflexivity.
  - destruct (N.lor (N.land a 127) (N.shiftl (uv_val e) 7) <? 128).
    + destruct e; discriminate.
    + rewrite group_low, group_high in *. rewrite cont_byte by assumption.
      f_equal. apply IH; try assumption. injection HL as HL. exact HL.
Qed.

Lemma uv_dec_min_inv l v rest : uv_dec_min l = Ok (v, rest) ->
  uv_dec l = Ok (v, rest) /\ (length l - length rest)%nat = length (uv_enc v).
Proof.
  unfold uv_dec_min, uv_min_len. destruct (uv_dec l) as [[v' rest']|e]; [|discriminate].
  destruct (Nat.eqb_spec (length l - length rest') (length (uv_enc v'))) as [E|E]; [|discriminate].
  intro H. injection H as -> ->. auto.
Qed.

Lemma uv_dec_min_err l e : uv_dec l = Err e -> uv_dec_min l = Err e.
Proof. intro H. unfold uv_dec_min. rewrite H. reflexivity. Qed.

Lemma uv_dec_min_err_inv l e : uv_dec_min l = Err e -> uv_dec l = Err e \/ e = HeaderChecksum.
Proof.
  unfold uv_dec_min. destruct (uv_dec l) as [[v rest]|e']; [|intro H; left; exact H].
  destruct (Nat.eqb (length l - length rest) (uv_min_len v)); [discriminate|].
  intro H. injection H as H. right. symmetry. exact H.
Qed.

Theorem uv_dec_min_roundtrip x rest : x < 2 ^ 64 -> uv_dec_min (uv_enc x ++ rest) = Ok (x, rest).
Proof.
  intro H. unfold uv_dec_min, uv_min_len. rewrite uv_roundtrip by exact H.
  rewrite app_length, Nat.add_sub, Nat.eqb_refl. reflexivity.
Qed.

(* The byte-range condition is needed in this model because list elements are unbounded numbers:
   [1000; 1] decodes like [232; 1]. *)
Definition min_enc (e : bytes) (v : N) : Prop :=
  framed e = true /\ uv_val e = v /\ length e = length (uv_enc v)
  /\ (Forall (fun b => b < 256) e -> e = uv_enc v).

Theorem uv_dec_min_consumed l v rest : uv_dec_min l = Ok (v, rest) ->
  exists e, l = e ++ rest /\ min_enc e v.
Proof.
  intro H. apply uv_dec_min_inv in H. destruct H as [Hd Hlen].
  apply uv_dec_shape in Hd. destruct Hd as (e & -> & He & ->).
  rewrite app_length, Nat.add_sub in Hlen.
  exists e. repeat split; try assumption.
  intro HW. symmetry. apply uv_enc_fuel_canon; auto.
Qed.

Theorem uv_dec_min_canonical l v rest :
  Forall (fun b => b < 256) l -> uv_dec_min l = Ok (v, rest) -> l = uv_enc v ++ rest.
Proof.
  intros HW H. destruct (uv_dec_min_consumed l v rest H) as (e & -> & _ & _ & _ & He).
  apply Forall_app in HW. rewrite <- (He (proj1 HW)). reflexivity.
Qed.

Example uv_dec_min_canonical_needs_bytes :
  uv_dec_min [1000; 1] = Ok (232, []) /\ uv_enc 232 = [232; 1].
Proof. split; vm_compute; reflexivity. Qed.

Corollary uv_dec_min_unique l1 l2 v r1 r2 :
  Forall (fun b => b < 256) l1 -> Forall (fun b => b < 256) l2 ->
  uv_dec_min l1 = Ok (v, r1) -> uv_dec_min l2 = Ok (v, r2) ->
  exists e, l1 = e ++ r1 /\ l2 = e ++ r2.
Proof.
  intros W1 W2 H1 H2. exists (uv_enc v).
  split; apply uv_dec_min_canonical; assumption.
Qed.

Print Assumptions uv_dec_min_roundtrip.
Print Assumptions uv_dec_min_canonical.
