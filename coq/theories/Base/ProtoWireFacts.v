(* Protobuf wire: one varint or bytes field of any number parses to itself, hence the round trip of
   the index entry message; upper bounds for the encoded sizes. *)
From GoSST Require Import Base.Bytes Base.ListFacts Base.Varint Base.VarintFacts Base.ProtoWire.
From Coq Require Import Lia.
Local Open Scope N_scope.

(* num < 2 ^ 61: the tag fits a uvarint *)
Lemma pb_field_varint num v rest :
  num < 2 ^ 61 -> v < 2 ^ 64 ->
  pb_field (uv_enc (num * 8) ++ uv_enc v ++ rest) = Ok (num, PbVarint v, rest).
Proof.
  intros Hn Hv. unfold pb_field.
  rewrite uv_roundtrip by (change (2 ^ 64) with (2 ^ 61 * 8); clear - Hn; lia).
  rewrite N.div_mul, N.mod_mul by discriminate. cbn [N.eqb].
  rewrite uv_roundtrip by exact Hv. reflexivity.
Qed.

Lemma pb_field_bytes num (b rest : bytes) :
  num < 2 ^ 61 -> N.of_nat (length b) < 2 ^ 64 ->
  pb_field (uv_enc (num * 8 + 2) ++ uv_enc (N.of_nat (length b)) ++ b ++ rest) = Ok (num, PbBytes b, rest).
Proof.
  intros Hn Hb. unfold pb_field.
  rewrite uv_roundtrip by (change (2 ^ 64) with (2 ^ 61 * 8); clear - Hn; lia).
  rewrite (N.add_comm (num * 8)), N.div_add, N.mod_add by discriminate.
  change (2 / 8 + num) with num. change (2 mod 8 =? 0) with false. change (2 mod 8 =? 2) with true. cbv iota.
  rewrite uv_roundtrip by exact Hb.
  replace (N.of_nat (length (b ++ rest)) <? N.of_nat (length b)) with false
    by (symmetry; apply N.ltb_ge; rewrite app_length; clear; lia).
  rewrite Nat2N.id, firstn_len_app, skipn_len_app. reflexivity.
Qed.

(* zero / empty values are not on the wire *)
Definition vfield (num v : N) : list (N * pb_val) := if v =? 0 then [] else [(num, PbVarint v)].
Definition bfield (num : N) (b : bytes) : list (N * pb_val) :=
  match b with [] => [] | _ => [(num, PbBytes b)] end.

Definition parses (rest : bytes) (fs : list (N * pb_val)) : Prop :=
  forall f, (length rest < f)%nat -> pb_fields f rest = Ok fs.

Lemma parses_nil : parses [] [].
Proof. intros f Hf. destruct f as [|f]; [inversion Hf|reflexivity]. Qed.

Lemma parses_field fld num v rest fs :
  pb_field (fld ++ rest) = Ok (num, v, rest) -> (0 < length fld)%nat -> parses rest fs ->
  parses (fld ++ rest) ((num, v) :: fs).
Proof.
  intros Hfld Hlen Hrest f Hf. rewrite app_length in Hf. destruct f as [|f]; [lia|].
  cbn [pb_fields]. rewrite Hfld, Hrest by lia.
  destruct fld; [cbn in Hlen; lia|reflexivity].
Qed.

Lemma parses_varint num v rest fs :
  num < 2 ^ 61 -> v < 2 ^ 64 -> parses rest fs ->
  parses (pb_varint_field num v ++ rest) (vfield num v ++ fs).
Proof.
  intros Hn Hv Hrest. unfold pb_varint_field, vfield.
  destruct (v =? 0); [exact Hrest|].
  apply parses_field; [rewrite <- app_assoc; apply pb_field_varint; assumption| |exact Hrest].
  rewrite app_length. pose proof (uv_enc_len v). lia.
Qed.

Lemma parses_bytes num (b rest : bytes) fs :
  num < 2 ^ 61 -> N.of_nat (length b) < 2 ^ 64 -> parses rest fs ->
  parses (pb_bytes_field num b ++ rest) (bfield num b ++ fs).
Proof.
  intros Hn Hb Hrest. unfold pb_bytes_field, bfield.
  destruct b as [|x b]; [exact Hrest|].
  apply parses_field; [rewrite <- !app_assoc; apply pb_field_bytes; assumption| |exact Hrest].
  rewrite !app_length. cbn [length]. lia.
Qed.

Lemma last_index_fields (b : bytes) off crc :
  let fs := bfield 1 b ++ vfield 2 off ++ vfield 3 crc in
  pb_last_bytes 1 fs [] = b /\ pb_last_varint 2 fs 0 = off /\ pb_last_varint 3 fs 0 = crc.
Proof.
  destruct b, off, crc; repeat split.
Qed.

Theorem pb_index_entry_roundtrip (key : bytes) (off crc : N) :
  N.of_nat (length key) < 2 ^ 64 -> off < 2 ^ 64 -> crc < 2 ^ 64 ->
  pb_dec_index_entry (pb_index_entry key off crc) = Ok (key, off, crc).
Proof.
  intros Hk Ho Hc.
  assert (P : parses (pb_index_entry key off crc) (bfield 1 key ++ vfield 2 off ++ vfield 3 crc)).
  { unfold pb_index_entry.
    rewrite <- (app_nil_r (pb_varint_field 3 crc)), <- (app_nil_r (vfield 3 crc)).
    apply parses_bytes, parses_varint, parses_varint, parses_nil; assumption || reflexivity. }
  unfold pb_dec_index_entry. rewrite P by apply Nat.lt_succ_diag_r.
  destruct (last_index_fields key off crc) as (-> & -> & ->). reflexivity.
Qed.

(* a tag or a length is at most ten bytes *)
Lemma pb_varint_field_len n v : (length (pb_varint_field n v) <= 20)%nat.
Proof.
  unfold pb_varint_field. destruct (v =? 0); [cbn [length]; lia|].
  rewrite app_length. pose proof (uv_enc_len (n * 8)). pose proof (uv_enc_len v). lia.
Qed.

Lemma pb_bytes_field_len n k : (length (pb_bytes_field n k) <= length k + 20)%nat.
Proof.
  unfold pb_bytes_field. destruct k as [|x k]; [cbn [length]; lia|].
  rewrite !app_length.
  pose proof (uv_enc_len (n * 8 + 2)). pose proof (uv_enc_len (N.of_nat (length (x :: k)))). lia.
Qed.

Lemma pb_index_entry_len k off crc : (length (pb_index_entry k off crc) <= length k + 60)%nat.
Proof.
  unfold pb_index_entry. rewrite !app_length.
  pose proof (pb_bytes_field_len 1 k). pose proof (pb_varint_field_len 2 off).
  pose proof (pb_varint_field_len 3 crc). lia.
Qed.

Print Assumptions pb_index_entry_roundtrip.
