(* Which hash / checksum constructors the writer and the reader side call, as read off the Go syntax
   trees of /repo on this run (gen/FactsCode.v).  The models use one function on both sides
   (crc32c for record headers, CRC-64/ISO for values, one key hash for the bloom filter); these
   equations are what justifies that, and they stop being provable when one side is changed. *)
From GoSSTGen Require Import FactsCode.

Lemma hash_facts :
  bloom_hash_writer = bloom_hash_reader /\
  value_crc_writer_iso = true /\ value_crc_reader_iso = true /\
  header_crc_writer_castagnoli = true /\ header_crc_reader_castagnoli = true.
Proof. repeat split; reflexivity. Qed.
