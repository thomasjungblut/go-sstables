(* Facts about lists (and one about pairs) that hold for any element type: filter / existsb / find
   under a predicate; sortedness, NoDup, Forall2, last; cutting and indexing; flat_map; association lists
   on N. *)
From Coq Require Import List Arith NArith Bool Sorting.Sorted.
Import ListNotations.

Section Pred.
  Context {A : Type} (f : A -> bool).

  Lemma filter_all_true l : Forall (fun x => f x = true) l -> filter f l = l.
  Proof. induction 1 as [|x l Hx _ IH]; simpl; [|rewrite Hx, IH]; reflexivity. Qed.

  Lemma filter_all_false l : Forall (fun x => f x = false) l -> filter f l = [].
  Proof. induction 1 as [|x l Hx _ IH]; simpl; [|rewrite Hx]; auto. Qed.

  Lemma existsb_all_false l : Forall (fun x => f x = false) l -> existsb f l = false.
  Proof. induction 1 as [|x l Hx _ IH]; simpl; [|rewrite Hx]; auto. Qed.

  Lemma find_all_false l : Forall (fun x => f x = false) l -> find f l = None.
  Proof. induction 1 as [|x l Hx _ IH]; simpl; [|rewrite Hx]; auto. Qed.

  Lemma Forall_filter (P : A -> Prop) l : Forall P l -> Forall P (filter f l).
  Proof. apply incl_Forall, incl_filter. Qed.

  Lemma StronglySorted_filter (R : A -> A -> Prop) l :
    StronglySorted R l -> StronglySorted R (filter f l).
  Proof.
    induction 1 as [|x l _ IH Hx]; simpl; [constructor|].
    destruct (f x); [constructor|]; auto using Forall_filter.
  Qed.
End Pred.

Lemma filter_filter {A} (p q : A -> bool) l : filter p (filter q l) = filter (fun x => q x && p x) l.
Proof.
  induction l as [|x l IH]; simpl; [reflexivity|].
  destruct (q x); simpl; [destruct (p x); rewrite IH; reflexivity|exact IH].
Qed.

Lemma filter_map_id {A} (q : A -> bool) (f : A -> A) l :
  (forall t, In t l -> q (f t) = q t) -> (forall t, In t l -> q t = true -> f t = t) ->
  filter q (map f l) = filter q l.
Proof.
  induction l as [|x l IH]; intros H1 H2; simpl; [reflexivity|].
  rewrite (H1 x (or_introl eq_refl)), IH by (intros; auto using in_cons).
  destruct (q x) eqn:E; [|reflexivity]. rewrite (H2 x (or_introl eq_refl) E). reflexivity.
Qed.

Lemma in_map_filter {A B} (p : A -> bool) (k : A -> B) l y :
  In y (map k (filter p l)) <-> exists x, In x l /\ p x = true /\ k x = y.
Proof.
  rewrite in_map_iff. split.
  - intros (x & E & Hx). apply filter_In in Hx. destruct Hx as [Hx Hp]. eauto.
  - intros (x & Hx & Hp & E). exists x. split; [exact E|]. apply filter_In. auto.
Qed.

Lemma StronglySorted_map {A B} (R : B -> B -> Prop) (f : A -> B) l :
  StronglySorted R (map f l) <-> StronglySorted (fun a b => R (f a) (f b)) l.
Proof.
  induction l as [|x l IH]; simpl; [split; constructor|].
  split; intros H; apply StronglySorted_inv in H; destruct H as [Hl Hx];
    (constructor; [apply IH, Hl|]); revert Hx; rewrite Forall_map; auto.
Qed.

Lemma StronglySorted_weaken {A} (R R' : A -> A -> Prop) l :
  (forall a b, R a b -> R' a b) -> StronglySorted R l -> StronglySorted R' l.
Proof.
  intros HR. induction 1 as [|x l _ IH Hx]; constructor; [exact IH|].
  eapply Forall_impl; [|exact Hx]. intros b. apply HR.
Qed.

Lemma StronglySorted_app {A} (R : A -> A -> Prop) a b :
  StronglySorted R (a ++ b) <-> StronglySorted R a /\ StronglySorted R b /\ forall x y, In x a -> In y b -> R x y.
Proof.
  induction a as [|z a IH]; simpl.
  - split; [intros H|intros (_ & H & _); exact H]. repeat split; [constructor|exact H|intros x y []].
  - split.
    + intros H. apply StronglySorted_inv in H. destruct H as [Hs Hall].
      apply IH in Hs. destruct Hs as (Ha & Hb & Hab). apply Forall_app in Hall. destruct Hall as [H1 H2].
      rewrite Forall_forall in H2. repeat split; [constructor; assumption|exact Hb|].
      intros x y [<-|Hx] Hy; auto.
    + intros (Ha & Hb & Hab). apply StronglySorted_inv in Ha. destruct Ha as [Ha Hz].
      constructor; [apply IH; auto|]. apply Forall_app. split; [exact Hz|]. apply Forall_forall. auto.
Qed.

Lemma StronglySorted_mid {A} (R : A -> A -> Prop) a b c :
  StronglySorted R (a ++ b ++ c) ->
  StronglySorted R b /\ (forall x y, In x a -> In y b -> R x y) /\ (forall x y, In x b -> In y c -> R x y).
Proof.
  intros H. apply StronglySorted_app in H. destruct H as (_ & H & Hab).
  apply StronglySorted_app in H. destruct H as (Hb & _ & Hbc). split; [exact Hb|]. split; [|exact Hbc].
  intros x y Hx Hy. apply Hab; [exact Hx|apply in_or_app; left; exact Hy].
Qed.

Lemma NoDup_app_disjoint {A} (l1 l2 : list A) :
  NoDup (l1 ++ l2) -> NoDup l2 /\ forall x, In x l1 -> ~ In x l2.
Proof.
  induction l1 as [|a r IH]; simpl; intros H; [split; [exact H|intros x []]|].
  apply NoDup_cons_iff in H. destruct H as [Hni H]. apply IH in H. destruct H as [H2 Hd].
  split; [exact H2|]. intros x [<-|Hx]; [|apply Hd, Hx].
  intros Hin. apply Hni. apply in_or_app. right. exact Hin.
Qed.

Lemma NoDup_fst_fun {A B} (l : list (A * B)) a b b' :
  NoDup (map fst l) -> In (a, b) l -> In (a, b') l -> b = b'.
Proof.
  induction l as [|[a0 b0] l IH]; intros Hnd H1 H2; [contradiction|].
  simpl in Hnd. apply NoDup_cons_iff in Hnd. destruct Hnd as [Hni Hnd].
  destruct H1 as [H1|H1], H2 as [H2|H2].
  - congruence.
  - exfalso. apply Hni. inversion H1; subst. apply (in_map fst) in H2. exact H2.
  - exfalso. apply Hni. inversion H2; subst. apply (in_map fst) in H1. exact H1.
  - apply IH; assumption.
Qed.

Lemma Forall2_rev {A B} (P : A -> B -> Prop) l1 l2 : Forall2 P l1 l2 -> Forall2 P (rev l1) (rev l2).
Proof.
  induction 1 as [|a b l1 l2 H H2 IH]; cbn [rev]; [constructor|].
  apply Forall2_app; [exact IH|constructor; [exact H|constructor]].
Qed.

Lemma Forall2_filter {A B} (R : A -> B -> Prop) (p : A -> bool) (q : B -> bool) l1 l2 :
  (forall a b, R a b -> p a = q b) -> Forall2 R l1 l2 -> Forall2 R (filter p l1) (filter q l2).
Proof.
  intros Hpq. induction 1 as [|a b l1 l2 Hab _ IH]; [constructor|].
  cbn [filter]. rewrite (Hpq a b Hab). destruct (q b); [constructor; assumption|exact IH].
Qed.

Lemma last_Forall {A} (P : A -> Prop) l : forall d, Forall P l -> P d -> P (last l d).
Proof.
  induction l as [|x l IH]; intros d Hl Hd; [exact Hd|].
  inversion Hl as [|? ? Hx Hl']; subst. destruct l as [|y l]; [exact Hx|].
  exact (IH d Hl' Hd).
Qed.

Lemma firstn_len_app {A} (a b : list A) : firstn (length a) (a ++ b) = a.
Proof. rewrite <- (Nat.add_0_r (length a)), firstn_app_2. apply app_nil_r. Qed.

Lemma skipn_len_app {A} (a b : list A) : skipn (length a) (a ++ b) = b.
Proof. rewrite skipn_app, skipn_all, Nat.sub_diag. reflexivity. Qed.

Lemma nth_skipn {A} n : forall (l : list A) k d, nth k (skipn n l) d = nth (n + k) l d.
Proof.
  induction n as [|n IH]; intros [|x l] k d; simpl; auto. destruct k; reflexivity.
Qed.

Lemma nth_true_lt (a : list bool) p : nth p a false = true -> p < length a.
Proof.
  intros H. destruct (Nat.lt_ge_cases p (length a)) as [E|E]; [exact E|].
  rewrite nth_overflow in H by exact E. discriminate.
Qed.

Lemma bools_ext (a b : list bool) : length a = length b ->
  (forall p, nth p a false = true <-> nth p b false = true) -> a = b.
Proof.
  intros Hlen H. apply nth_ext with (d := false) (d' := false); [exact Hlen|].
  intros p _. specialize (H p). destruct (nth p a false), (nth p b false); intuition congruence.
Qed.

Lemma flat_map_map {A B C} (f : B -> list C) (g : A -> B) l :
  flat_map f (map g l) = flat_map (fun x => f (g x)) l.
Proof. rewrite !flat_map_concat_map, map_map. reflexivity. Qed.

Lemma flat_map_filter_map {A B C} (p : A -> bool) (k : A -> B) (f : B -> list C) l :
  flat_map (fun x => if p x then f (k x) else []) l = flat_map f (map k (filter p l)).
Proof. induction l as [|x l IH]; simpl; [reflexivity|]. destruct (p x); simpl; rewrite IH; reflexivity. Qed.

Lemma fst_let {A B C} (p : A * B) (f : B -> C) : fst (let '(a, b) := p in (a, f b)) = fst p.
Proof. destruct p. reflexivity. Qed.

(* lookup after update in an association list on N with a default, first binding wins; Pool.pget / pset
   and Db.Conc.ph_get / ph_set are instances by conversion *)
Section NAssoc.
  Variable V : Type.
  Variable d : V.
  Local Open Scope N_scope.
  Fixpoint nget (t : N) (l : list (N * V)) : V :=
    match l with [] => d | (t', p) :: r => if t =? t' then p else nget t r end.
  Fixpoint nset (t : N) (p : V) (l : list (N * V)) : list (N * V) :=
    match l with
    | [] => [(t, p)]
    | (t', p') :: r => if t =? t' then (t, p) :: r else (t', p') :: nset t p r
    end.

  Lemma nget_nset t' t p l : nget t' (nset t p l) = if t' =? t then p else nget t' l.
  Proof.
    induction l as [|[t0 p0] l IH]; simpl; [reflexivity|].
    destruct (N.eqb_spec t t0) as [<-|Hne]; simpl; [destruct (t' =? t); reflexivity|].
    rewrite IH. destruct (N.eqb_spec t' t0) as [->|]; [|reflexivity].
    destruct (N.eqb_spec t0 t); [congruence|reflexivity].
  Qed.
End NAssoc.
