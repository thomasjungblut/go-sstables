(* the reflected CRC: linearity over xor, width preservation, and from these
   one_byte_change_detected: two inputs of equal length that differ in exactly one byte have
   different CRCs. *)
From GoSST Require Import Base.Bytes Base.Crc.
From Coq Require Import Lia.
Local Open Scope N_scope.

Example crc_check_values :
  crc32c [49;50;51;52;53;54;55;56;57] = 0xE3069283 /\ crc64iso [49;50;51;52;53;54;55;56;57] = 0xb90956c775a41001.
Proof. split; vm_compute; reflexivity. Qed.

(* Stated over a variable step: unfolding one step of the fold by conversion is slow to check once
   the step is the CRC update, applying these lemmas is not. *)
Section Fold.
  Context {S B : Type} (f : S -> B -> S) (P : S -> Prop) (Q : B -> Prop).
  Hypothesis f_ok : forall s b, P s -> Q b -> P (f s b).

  Lemma fold_left_inv bs : forall s, P s -> Forall Q bs -> P (fold_left f bs s).
  Proof.
    induction bs as [|b bs IH]; intros s Hs Hb; [exact Hs|].
    apply Forall_cons_iff in Hb. destruct Hb as [Hb Hbs]. apply IH; [apply f_ok; assumption|exact Hbs].
  Qed.

  Hypothesis f_inj : forall s1 s2 b, P s1 -> P s2 -> Q b -> f s1 b = f s2 b -> s1 = s2.

  Lemma fold_left_inj bs : forall s1 s2, P s1 -> P s2 -> Forall Q bs ->
    fold_left f bs s1 = fold_left f bs s2 -> s1 = s2.
  Proof.
    induction bs as [|b bs IH]; intros s1 s2 H1 H2 Hb E; [exact E|].
    apply Forall_cons_iff in Hb. destruct Hb as [Hb Hbs].
    apply IH in E; auto. apply (f_inj s1 s2 b); assumption.
  Qed.

  Lemma fold_left_one_diff pre b b' post s :
    P s -> Forall Q pre -> Forall Q post -> Q b -> Q b' ->
    fold_left f (pre ++ b :: post) s = fold_left f (pre ++ b' :: post) s ->
    exists s', P s' /\ f s' b = f s' b'.
  Proof.
    intros Hs Hpre Hpost Hb Hb'. rewrite !fold_left_app. cbn [fold_left]. intro E.
    assert (Hs' : P (fold_left f pre s)) by (apply fold_left_inv; assumption).
    exists (fold_left f pre s). split; [exact Hs'|].
    apply fold_left_inj in E; auto.
  Qed.
End Fold.

Lemma lxor_cancel_r a b c : N.lxor a c = N.lxor b c -> a = b.
Proof.
  intro E. rewrite <- (N.lxor_0_r a), <- (N.lxor_nilpotent c), <- N.lxor_assoc, E, N.lxor_assoc, N.lxor_nilpotent.
  apply N.lxor_0_r.
Qed.

Lemma lxor_cancel_l a b c : N.lxor c a = N.lxor c b -> a = b.
Proof. rewrite !(N.lxor_comm c). apply lxor_cancel_r. Qed.

Lemma odd_lxor a b : N.odd (N.lxor a b) = xorb (N.odd a) (N.odd b).
Proof. rewrite <- !N.bit0_odd. apply N.lxor_spec. Qed.

Lemma step1_lxor p a b : step1 p (N.lxor a b) = N.lxor (step1 p a) (step1 p b).
Proof.
  unfold step1. rewrite odd_lxor, N.shiftr_lxor.
  destruct (N.odd a), (N.odd b); cbn [xorb]; apply N.bits_inj; intro n;
    rewrite ?N.lxor_spec;
    destruct (N.testbit (N.shiftr a 1) n), (N.testbit (N.shiftr b 1) n), (N.testbit p n); reflexivity.
Qed.

Lemma steps_lxor n p : forall a b, steps n p (N.lxor a b) = N.lxor (steps n p a) (steps n p b).
Proof. induction n as [|n IH]; intros a b; cbn [steps]; [reflexivity|]. rewrite step1_lxor. apply IH. Qed.

Definition fits (w : N) (s : N) : Prop := s < 2 ^ w.

Lemma log2_fits w a : a <> 0 -> fits w a -> N.log2 a < w.
Proof. intros Hn H. apply N.log2_lt_pow2; [apply N.neq_0_lt_0, Hn|exact H]. Qed.

Lemma fits_testbit w d : fits w d -> N.testbit d w = false.
Proof.
  intro H. destruct (N.eq_dec d 0) as [->|Hn]; [apply N.bits_0|].
  apply N.bits_above_log2, log2_fits; assumption.
Qed.

Lemma lxor_fits w a b : fits w a -> fits w b -> fits w (N.lxor a b).
Proof.
  intros Ha Hb.
  destruct (N.eq_dec a 0) as [->|Na]; [rewrite N.lxor_0_l; exact Hb|].
  destruct (N.eq_dec b 0) as [->|Nb]; [rewrite N.lxor_0_r; exact Ha|].
  destruct (N.eq_dec (N.lxor a b) 0) as [->|Hn]; [apply N.neq_0_lt_0, N.pow_nonzero; discriminate|].
  apply N.log2_lt_pow2; [apply N.neq_0_lt_0, Hn|]. eapply N.le_lt_trans; [apply N.log2_lxor|].
  apply N.max_lub_lt; apply log2_fits; assumption.
Qed.

Lemma step1_fits w p s : fits w p -> fits w s -> fits w (step1 p s).
Proof.
  intros Hp Hs.
  assert (Hsh : fits w (N.shiftr s 1)).
  { unfold fits in *. apply N.le_lt_trans with s; [|exact Hs].
    rewrite N.shiftr_div_pow2. apply N.div_le_upper_bound; [discriminate|]. change (2 ^ 1) with 2. lia. }
  unfold step1. destruct (N.odd s); [apply lxor_fits; assumption|exact Hsh].
Qed.

Lemma steps_fits n w p : fits w p -> forall s, fits w s -> fits w (steps n p s).
Proof. intros Hp. induction n as [|n IH]; intros s Hs; cbn [steps]; [exact Hs|]. apply IH, step1_fits; assumption. Qed.

Lemma byte_fits w b : 8 <= w -> b < 256 -> fits w b.
Proof. unfold fits; intros Hw H. apply N.lt_le_trans with (2 ^ 8); [exact H|]. apply N.pow_le_mono_r; lia. Qed.

Lemma upd_fits w p s b : 8 <= w -> fits w p -> fits w s -> b < 256 -> fits w (upd p s b).
Proof. intros. apply steps_fits; [assumption|]. apply lxor_fits; [assumption|apply byte_fits; assumption]. Qed.

Lemma crc_raw_fits w p init bs :
  8 <= w -> fits w p -> fits w init -> Forall (fun x => x < 256) bs -> fits w (crc_raw p init bs).
Proof. intros Hw Hp. apply fold_left_inv. intros s b. apply upd_fits; assumption. Qed.

(* with the top bit of the polynomial set, a step sends only 0 to 0: an odd register would need
   bit w of itself to cancel the top bit of the polynomial, an even one is twice its shift *)
Lemma step1_zero_inv w p d :
  0 < w -> N.testbit p (w - 1) = true -> fits w d -> step1 p d = 0 -> d = 0.
Proof.
  intros Hw Hp Hd H. unfold step1 in H. pose proof (N.div2_odd d) as Hd2. rewrite N.div2_spec in Hd2.
  destruct (N.odd d).
  - exfalso. apply N.lxor_eq in H. rewrite <- H, N.shiftr_spec' in Hp.
    replace (w - 1 + 1) with w in Hp by (clear - Hw; lia). rewrite fits_testbit in Hp by exact Hd. discriminate.
  - rewrite Hd2, H. reflexivity.
Qed.

Lemma steps_zero_inv n w p :
  0 < w -> N.testbit p (w - 1) = true -> fits w p ->
  forall d, fits w d -> steps n p d = 0 -> d = 0.
Proof.
  intros Hw Hb Hp. induction n as [|n IH]; intros d Hd H; cbn [steps] in H; [exact H|].
  apply IH in H; [|apply step1_fits; assumption].
  eapply step1_zero_inv; eassumption.
Qed.

Section OneByte.
  Variables (w p : N).
  Hypothesis Hw : 8 <= w.
  Hypothesis Hp : fits w p.
  Hypothesis Htop : N.testbit p (w - 1) = true.

  (* linear with kernel 0, hence injective *)
  Lemma steps_inj n a b : fits w a -> fits w b -> steps n p a = steps n p b -> a = b.
  Proof.
    intros Ha Hb E. apply N.lxor_eq.
    apply (steps_zero_inv n w p); [lia|exact Htop|exact Hp|apply lxor_fits; assumption|].
    rewrite steps_lxor, E. apply N.lxor_nilpotent.
  Qed.

  Lemma upd_inj s1 s2 b1 b2 : fits w s1 -> fits w s2 -> b1 < 256 -> b2 < 256 ->
    upd p s1 b1 = upd p s2 b2 -> N.lxor s1 b1 = N.lxor s2 b2.
  Proof. unfold upd. intros. apply (steps_inj 8); [apply lxor_fits ..|]; auto using byte_fits. Qed.

  Theorem one_byte_change_detected init pre b b' post :
    fits w init -> Forall (fun x => x < 256) pre -> Forall (fun x => x < 256) post ->
    b < 256 -> b' < 256 -> b <> b' ->
    crc_raw p init (pre ++ b :: post) <> crc_raw p init (pre ++ b' :: post).
  Proof.
    intros Hi Hpre Hpost Hb Hb' Hne E. unfold crc_raw in E.
    apply (fold_left_one_diff _ (fits w) (fun x => x < 256)) in E; try assumption.
    - destruct E as (s & Hs & E). apply upd_inj in E; try assumption.
      exact (Hne (lxor_cancel_l _ _ _ E)).
    - intros. apply upd_fits; assumption.
    - intros s1 s2 c H1 H2 Hc E'. apply upd_inj in E'; try assumption.
      exact (lxor_cancel_r _ _ _ E').
  Qed.
End OneByte.

Lemma crc_one_byte w p init x pre b b' post :
  8 <= w -> fits w p -> N.testbit p (w - 1) = true -> fits w init ->
  Forall (fun x => x < 256) pre -> Forall (fun x => x < 256) post -> b < 256 -> b' < 256 -> b <> b' ->
  N.lxor (crc_raw p init (pre ++ b :: post)) x <> N.lxor (crc_raw p init (pre ++ b' :: post)) x.
Proof. intros. intro E. apply lxor_cancel_r in E. revert E. apply (one_byte_change_detected w); assumption. Qed.

Lemma crc_lt w p init x bs :
  8 <= w -> fits w p -> fits w init -> fits w x -> Forall (fun x => x < 256) bs ->
  N.lxor (crc_raw p init bs) x < 2 ^ w.
Proof. intros. apply lxor_fits; [apply crc_raw_fits|]; assumption. Qed.

Theorem crc32c_one_byte pre b b' post :
  Forall (fun x => x < 256) pre -> Forall (fun x => x < 256) post -> b < 256 -> b' < 256 -> b <> b' ->
  crc32c (pre ++ b :: post) <> crc32c (pre ++ b' :: post).
Proof. apply (crc_one_byte 32); [lia|reflexivity..]. Qed.

Theorem crc64iso_one_byte pre b b' post :
  Forall (fun x => x < 256) pre -> Forall (fun x => x < 256) post -> b < 256 -> b' < 256 -> b <> b' ->
  crc64iso (pre ++ b :: post) <> crc64iso (pre ++ b' :: post).
Proof. apply (crc_one_byte 64); [lia|reflexivity..]. Qed.

(* so a CRC-32 fits a 5-byte uvarint *)
Lemma crc32c_lt bs : Forall (fun x => x < 256) bs -> crc32c bs < 2 ^ 32.
Proof. apply (crc_lt 32); [lia|reflexivity..]. Qed.

Lemma crc64iso_lt bs : Forall (fun x => x < 256) bs -> crc64iso bs < 2 ^ 64.
Proof. apply (crc_lt 64); [lia|reflexivity..]. Qed.
