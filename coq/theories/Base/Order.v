(* Comparator laws (Go comparators return <0 / 0 / >0; modelled as Coq's comparison), the proof
   that bcmp (bytes.Compare) satisfies them, the boolean tests on byte strings (beqb, bytes_eqb,
   bleb / bltb), and what the laws give for any comparator. *)
From GoSST Require Import Base.Bytes.
From Coq Require Import Lia.

Record cmp_laws {K} (cmp : K -> K -> comparison) : Prop := {
  cl_refl : forall a, cmp a a = Eq;
  cl_eq : forall a b, cmp a b = Eq -> a = b;
  cl_antisym : forall a b, cmp b a = CompOpp (cmp a b);
  cl_trans : forall a b c, cmp a b = Lt -> cmp b c = Lt -> cmp a c = Lt
}.

Lemma bcmp_refl a : bcmp a a = Eq.
Proof. induction a as [|x a IH]; simpl; [reflexivity|]. rewrite N.compare_refl. exact IH. Qed.

Lemma bcmp_eq a b : bcmp a b = Eq -> a = b.
Proof.
  revert b; induction a as [|x a IH]; intros [|y b]; simpl; try discriminate; [reflexivity|].
  destruct (N.compare x y) eqn:E; try discriminate.
  apply N.compare_eq in E. intros H. f_equal; [exact E | apply IH; exact H].
Qed.

Lemma bcmp_antisym a b : bcmp b a = CompOpp (bcmp a b).
Proof.
  revert b; induction a as [|x a IH]; intros [|y b]; simpl; try reflexivity.
  rewrite (N.compare_antisym x y). destruct (N.compare x y); simpl; try reflexivity. apply IH.
Qed.

Lemma bcmp_trans a b c : bcmp a b = Lt -> bcmp b c = Lt -> bcmp a c = Lt.
Proof.
  revert b c; induction a as [|x a IH]; intros [|y b] [|z c]; simpl; try discriminate; try reflexivity.
  destruct (N.compare x y) eqn:E1; destruct (N.compare y z) eqn:E2; try discriminate; intros H1 H2.
  - apply N.compare_eq in E1, E2. subst. rewrite N.compare_refl. eapply IH; eassumption.
  - apply N.compare_eq in E1. subst. rewrite E2. reflexivity.
  - apply N.compare_eq in E2. subst. rewrite E1. reflexivity.
  - rewrite N.compare_lt_iff in *. assert (x < z)%N by lia.
    destruct (N.compare x z) eqn:E3; try reflexivity; [apply N.compare_eq in E3|rewrite N.compare_gt_iff in E3]; lia.
Qed.

Lemma bcmp_laws : cmp_laws bcmp.
Proof. constructor; [apply bcmp_refl|apply bcmp_eq|apply bcmp_antisym|apply bcmp_trans]. Qed.

Lemma beqb_true a b : beqb a b = true <-> a = b.
Proof.
  unfold beqb. split; [|intros ->; rewrite bcmp_refl; reflexivity].
  destruct (bcmp a b) eqn:E; try discriminate. intros _. apply bcmp_eq, E.
Qed.

Lemma beqb_refl a : beqb a a = true.
Proof. apply beqb_true. reflexivity. Qed.

Lemma beqb_false a b : beqb a b = false <-> a <> b.
Proof. rewrite <- beqb_true. destruct (beqb a b); split; congruence. Qed.

Lemma beqb_sym a b : beqb a b = beqb b a.
Proof. unfold beqb. rewrite (bcmp_antisym b a). destruct (bcmp b a); reflexivity. Qed.

Lemma beqb_lt a b : bcmp a b = Lt -> beqb a b = false.
Proof. unfold beqb. intros ->. reflexivity. Qed.

Lemma beqb_gt a b : bcmp a b = Lt -> beqb b a = false.
Proof. intros H. rewrite beqb_sym. apply beqb_lt, H. Qed.

Lemma bytes_eqb_beqb a : forall b, bytes_eqb a b = beqb a b.
Proof.
  unfold bytes_eqb, beqb.
  induction a as [|x a IH]; intros [|y b]; simpl; try reflexivity.
  rewrite N.eqb_compare. destruct (N.compare x y); simpl; try reflexivity. apply IH.
Qed.

Lemma bytes_eqb_eq (a b : bytes) : bytes_eqb a b = true <-> a = b.
Proof. rewrite bytes_eqb_beqb. apply beqb_true. Qed.

Lemma bleb_negb_bltb a b : bleb a b = negb (bltb b a).
Proof. unfold bleb, bltb. rewrite (bcmp_antisym a b). destruct (bcmp a b); reflexivity. Qed.

Section Derived.
  Context {K} (cmp : K -> K -> comparison) (L : cmp_laws cmp).

  Lemma cmp_gt_lt a b : cmp a b = Gt <-> cmp b a = Lt.
  Proof. rewrite (cl_antisym _ L a b). destruct (cmp a b); simpl; split; congruence. Qed.

  Lemma cmp_eq_sym a b : cmp a b = Eq -> cmp b a = Eq.
  Proof. intros H. rewrite (cl_antisym _ L a b), H. reflexivity. Qed.

  Lemma cmp_eq_iff a b : cmp a b = Eq <-> a = b.
  Proof. split; [apply (cl_eq _ L)|intros ->; apply (cl_refl _ L)]. Qed.

  Lemma cmp_lt_irrefl a : cmp a a <> Lt.
  Proof. rewrite (cl_refl _ L). discriminate. Qed.

  Lemma cmp_le_lt_trans a b c : cmp a b <> Gt -> cmp b c = Lt -> cmp a c = Lt.
  Proof.
    intros H1 H2. destruct (cmp a b) eqn:E; try congruence.
    - apply (cl_eq _ L) in E. subst. exact H2.
    - eapply (cl_trans _ L); eassumption.
  Qed.

  Lemma cmp_lt_le_trans a b c : cmp a b = Lt -> cmp b c <> Gt -> cmp a c = Lt.
  Proof.
    intros H1 H2. destruct (cmp b c) eqn:E; try congruence.
    - apply (cl_eq _ L) in E. subst. exact H1.
    - eapply (cl_trans _ L); eassumption.
  Qed.

  Lemma cmp_le_trans a b c : cmp a b <> Gt -> cmp b c <> Gt -> cmp a c <> Gt.
  Proof.
    intros H1 H2. destruct (cmp a b) eqn:E; try congruence.
    - apply (cl_eq _ L) in E. subst. exact H2.
    - rewrite (cmp_lt_le_trans a b c E H2). discriminate.
  Qed.
End Derived.
