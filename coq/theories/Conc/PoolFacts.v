(* C18 over the pooled-buffer reader machine (Conc/Pool.v): OwnInv (no buffer is in the pool twice, or in
   the pool and owned, or owned by two calls) and ValInv (a filled buffer holds the window of its call)
   are kept by every sub-step; the answers follow. *)
From Coq Require Import Lia.
From GoSST Require Import Base.Bytes Base.ListFacts Conc.Pool.
Local Open Scope N_scope.

Section PoolProofs.
  Variable R : Type.
  Variable window : N -> bytes.
  Variable decode : bytes -> R.

  Lemma pget_pset t' t p l : pget R t' (pset R t p l) = if t' =? t then p else pget R t' l.
  Proof. exact (nget_nset (pphase R) (PIdle R) t' t p l). Qed.

  Lemma pget_pset_same t p l : pget R t (pset R t p l) = p.
  Proof. rewrite pget_pset, N.eqb_refl. reflexivity. Qed.

  Lemma pget_pset_other t' t p l : t <> t' -> pget R t' (pset R t p l) = pget R t' l.
  Proof.
    intros Hne. rewrite pget_pset. destruct (t' =? t) eqn:E; [|reflexivity].
    apply N.eqb_eq in E. congruence.
  Qed.

  Definition owned (p : pphase R) : option N :=
    match p with
    | PGot _ _ b => Some b
    | PFilled _ _ b => Some b
    | PDone _ _ _ b => Some b
    | _ => None
    end.

  Definition val_ok (content : list (N * bytes)) (p : pphase R) : Prop :=
    match p with
    | PFilled _ off b => cget b content = window off
    | PDone _ off r _ => r = decode (window off)
    | PRet _ off r => r = decode (window off)
    | _ => True
    end.

  Lemma owned_pset t' t p l :
    owned (pget R t' (pset R t p l)) = if t' =? t then owned p else owned (pget R t' l).
  Proof. rewrite pget_pset. destruct (t' =? t); reflexivity. Qed.

  Record OwnInv (free : list N) (next : N) (calls : list (N * pphase R)) : Prop := mkOwn {
    oi_free_lt : forall b, In b free -> b < next;
    oi_own_lt : forall t b, owned (pget R t calls) = Some b -> b < next;
    oi_nodup : NoDup free;
    oi_sep : forall t b, owned (pget R t calls) = Some b -> ~ In b free;
    oi_excl : forall t1 t2 b,
      owned (pget R t1 calls) = Some b -> owned (pget R t2 calls) = Some b -> t1 = t2
  }.

  Lemma own_set_same free next calls t p :
    owned p = owned (pget R t calls) -> OwnInv free next calls -> OwnInv free next (pset R t p calls).
  Proof.
    intros Hp [Hfl Hol Hnd Hsep Hex].
    assert (forall t', owned (pget R t' (pset R t p calls)) = owned (pget R t' calls)) as Hk.
    { intros t'. destruct (N.eqb_spec t t') as [<-|Hne]; [rewrite pget_pset_same; exact Hp|].
      rewrite pget_pset_other by exact Hne. reflexivity. }
    split.
    - exact Hfl.
    - intros t' b H. rewrite Hk in H. eapply Hol. exact H.
    - exact Hnd.
    - intros t' b H. rewrite Hk in H. eapply Hsep. exact H.
    - intros t1 t2 b H1 H2. rewrite Hk in H1, H2. eapply Hex; eassumption.
  Qed.

  Lemma own_take b rest next calls t p :
    owned p = Some b -> OwnInv (b :: rest) next calls -> OwnInv rest next (pset R t p calls).
  Proof.
    intros Hp [Hfl Hol Hnd Hsep Hex]. split.
    - intros x Hx. apply Hfl. right. exact Hx.
    - intros t' x H. rewrite owned_pset in H. destruct (t' =? t).
      + rewrite Hp in H. inversion H; subst x. apply Hfl. left. reflexivity.
      + eapply Hol. exact H.
    - inversion Hnd as [|y ys Hnotin Hnd']; subst. exact Hnd'.
    - intros t' x H. rewrite owned_pset in H. destruct (t' =? t).
      + rewrite Hp in H. inversion H; subst x.
        inversion Hnd as [|y ys Hnotin Hnd']; subst. exact Hnotin.
      + intros Hin. eapply Hsep; [exact H|]. right. exact Hin.
    - intros t1 t2 x H1 H2. rewrite owned_pset in H1, H2.
      destruct (N.eqb_spec t1 t) as [->|], (N.eqb_spec t2 t) as [->|].
      + reflexivity.
      + rewrite Hp in H1. inversion H1; subst x. exfalso. eapply Hsep; [exact H2|]. left. reflexivity.
      + rewrite Hp in H2. inversion H2; subst x. exfalso. eapply Hsep; [exact H1|]. left. reflexivity.
      + eapply Hex; eassumption.
  Qed.

  (* the pool is empty: a fresh buffer joins it (and is taken at once) *)
  Lemma own_grow next calls : OwnInv [] next calls -> OwnInv [next] (next + 1) calls.
  Proof.
    intros [Hfl Hol Hnd Hsep Hex]. split.
    - intros b [<-|[]]. lia.
    - intros t b H. apply Hol in H. lia.
    - constructor; [intros []|constructor].
    - intros t b H [<-|[]]. apply Hol in H. lia.
    - exact Hex.
  Qed.

  Lemma own_put b free next calls t p :
    owned p = None -> owned (pget R t calls) = Some b ->
    OwnInv free next calls -> OwnInv (b :: free) next (pset R t p calls).
  Proof.
    intros Hp Hold [Hfl Hol Hnd Hsep Hex]. split.
    - intros x [Hx|Hx].
      + subst x. eapply Hol. exact Hold.
      + apply Hfl. exact Hx.
    - intros t' x H. rewrite owned_pset in H. destruct (t' =? t).
      + rewrite Hp in H. discriminate.
      + eapply Hol. exact H.
    - constructor; [|exact Hnd]. eapply Hsep. exact Hold.
    - intros t' x H. rewrite owned_pset in H. destruct (N.eqb_spec t' t) as [->|Hne].
      + rewrite Hp in H. discriminate.
      + intros [Hin|Hin].
        * subst x. apply Hne. eapply Hex; eassumption.
        * eapply Hsep; eassumption.
    - intros t1 t2 x H1 H2. rewrite owned_pset in H1, H2.
      destruct (t1 =? t); [rewrite Hp in H1; discriminate|].
      destruct (t2 =? t); [rewrite Hp in H2; discriminate|].
      eapply Hex; eassumption.
  Qed.

  Definition ValInv (content : list (N * bytes)) (calls : list (N * pphase R)) : Prop :=
    forall t, val_ok content (pget R t calls).

  Lemma val_set content calls t p :
    val_ok content p -> ValInv content calls -> ValInv content (pset R t p calls).
  Proof.
    intros Hp Hv t'. rewrite pget_pset. destruct (t' =? t); [exact Hp|apply Hv].
  Qed.

  (* filling the buffer a thread owns does not disturb the buffers of the others *)
  Lemma val_fill free next content calls t off b :
    OwnInv free next calls -> pget R t calls = PGot R off b -> ValInv content calls ->
    ValInv ((b, window off) :: content) (pset R t (PFilled R off b) calls).
  Proof.
    intros Hown Hget Hv t'. destruct (N.eqb_spec t t') as [<-|Hne].
    - rewrite pget_pset_same. simpl. rewrite N.eqb_refl. reflexivity.
    - rewrite pget_pset_other by exact Hne. specialize (Hv t'). destruct (pget R t' calls) as [|off0|off0 b0|off0 b0|off0 r0 b0|off0 r0] eqn:Hp;
        simpl in *; try exact Hv.
      destruct (b0 =? b) eqn:Eb; [|exact Hv].
      apply N.eqb_eq in Eb. subst b0. elim Hne.
      apply (oi_excl _ _ _ Hown t t' b); [rewrite Hget|rewrite Hp]; reflexivity.
  Qed.

  Definition PInv (s : pstate R) : Prop :=
    OwnInv (p_free R s) (p_next R s) (p_calls R s) /\ ValInv (p_content R s) (p_calls R s).

  Lemma pinv_init : PInv (p_init R).
  Proof.
    split.
    - split; simpl.
      + intros b H. destruct H.
      + intros t b H. discriminate.
      + constructor.
      + intros t b H. discriminate.
      + intros t1 t2 b H. discriminate.
    - intros t. exact I.
  Qed.

  (* stated over the result of pstep: 30 of the 36 action/phase combinations are disabled and close by I *)
  Lemma pstep_inv s a : PInv s ->
    match pstep R window decode s a with
    | Some (s', out) => PInv s' /\ Forall (fun a => snd a = decode (window (snd (fst a)))) out
    | None => True
    end.
  Proof.
    intros [Hown Hval].
    destruct a as [t off|t|t|t|t|t]; cbn [pstep]; pose proof (Hval t) as Hv;
      destruct (pget R t (p_calls R s)) as [|off0|off0 b0|off0 b0|off0 r0 b0|off0 r0] eqn:Hp;
      try exact I; cbn [val_ok] in Hv.
    - split; [split; simpl|constructor].
      + apply own_set_same; [rewrite Hp; reflexivity|exact Hown].
      + apply val_set; [exact I|exact Hval].
    - destruct (p_free R s) as [|b rest] eqn:Hfree;
        (split; [split; simpl|constructor]); try (apply val_set; [exact I|exact Hval]).
      + apply own_take with (b := p_next R s); [reflexivity|apply own_grow, Hown].
      + apply own_take with (b := b); [reflexivity|exact Hown].
    - split; [split; simpl|constructor].
      + apply own_set_same; [rewrite Hp; reflexivity|exact Hown].
      + eapply val_fill; eassumption.
    - split; [split; simpl|constructor].
      + apply own_set_same; [rewrite Hp; reflexivity|exact Hown].
      + apply val_set; [|exact Hval]. simpl. rewrite Hv. reflexivity.
    - split; [split; simpl|constructor].
      + apply own_put; [reflexivity|rewrite Hp; reflexivity|exact Hown].
      + apply val_set; [exact Hv|exact Hval].
    - (* AAck: the only step that answers *) split; [split; simpl|].
      + apply own_set_same; [rewrite Hp; reflexivity|exact Hown].
      + apply val_set; [exact I|exact Hval].
      + constructor; [exact Hv|constructor].
  Qed.

  Lemma panswers_inv acts : forall s, PInv s ->
    Forall (fun a => snd a = decode (window (snd (fst a)))) (panswers R window decode s acts).
  Proof.
    induction acts as [|a acts IH]; intros s Hinv; simpl; [constructor|].
    pose proof (pstep_inv s a Hinv) as H.
    destruct (pstep R window decode s a) as [[s' out]|]; [|constructor].
    apply Forall_app. split; [apply H|apply IH, H].
  Qed.
End PoolProofs.

Theorem pooled_calls_answer_as_alone (R : Type) (window : N -> bytes) (decode : bytes -> R) (acts : list (pact)) :
  Forall (fun a => snd a = decode (window (snd (fst a)))) (panswers R window decode (p_init R) acts).
Proof.
  apply panswers_inv. apply pinv_init.
Qed.

(* two calls whose sub-steps interleave, the second re-using the buffer of the first *)
Example pooled_schedule :
  panswers (list N) (fun off => [off; off + 1]) (fun b => rev b) (p_init _)
    [ACall 1 10; ACall 2 20; AGet 1; AGet 2; AFill 1; AFill 2; ADecode 2; ADecode 1; APut 1; AAck 1;
     ACall 1 30; AGet 1; AFill 1; APut 2; ADecode 1; AAck 2; APut 1; AAck 1]
  = [(1, 10, [11; 10]); (2, 20, [21; 20]); (1, 30, [31; 30])].
Proof. vm_compute. reflexivity. Qed.

Print Assumptions pooled_calls_answer_as_alone.
Print Assumptions pooled_schedule.
