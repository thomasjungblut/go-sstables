(* C07: replay delivers exactly the appended records in order across any rotations; and for every
   byte-level crash image of the newest file (cut at ANY length) replay succeeds and delivers the
   records of the older files plus exactly the records wholly contained in the cut newest file.
   Behind these, from log_boundary_replay on (C07, C13): the log file behind its write buffer. *)
From GoSST Require Import Base.Bytes Base.ListFacts RecordIO.Format RecordIO.FormatFacts RecordIO.Writer RecordIO.SeqReader RecordIO.WriteReadFacts.
From GoSST Require Import RecordIO.BufWriter RecordIO.BufWriterFacts Wal.Wal Wal.LogProgram.
From Coq Require Import Lia.
Local Open Scope N_scope.

Section Facts.
  Variable c : codec.
  Hypothesis codec_ok : forall x, decomp c (comp c x) = Ok x.

  Definition rec_ok (r : bytes) : Prop := lenN r < 2 ^ 64 /\ lenN (comp c r) < 2 ^ 64.
  Definition wop_ok (o : wop) : Prop := match o with WAppend r => rec_ok r | WRotate => True end.

  Fixpoint appended (ops : list wop) : list bytes :=
    match ops with
    | [] => []
    | WAppend r :: rest => r :: appended rest
    | WRotate :: rest => appended rest
    end.

  Definition wal_file (rs : list bytes) : bytes :=
    file_hdr (ctype c) ++ flat_map (fun r => enc_rec c (Some r)) rs.

  Definition run (max : N) (ops : list wop) : appender := fold_left (app_step c max) ops (app_new c).

  Lemma wal_file_encs rs : wal_file rs = file_hdr (ctype c) ++ encs c (map Some rs).
  Proof. unfold wal_file, encs. rewrite flat_map_map. reflexivity. Qed.

  Lemma rec_ok_size_ok rs : Forall rec_ok rs -> Forall (size_ok c) (map Some rs).
  Proof. exact (proj2 (Forall_map Some (size_ok c) rs)). Qed.

  Lemma appended_ok ops : Forall wop_ok ops -> Forall rec_ok (appended ops).
  Proof.
    intro H. induction H as [|[r|] ops Ho _ IH]; cbn [appended]; [constructor|constructor; assumption|exact IH].
  Qed.

  (* the failed flag is only raised at the file-number limit, and there no step clears it *)
  Definition failed_at_limit (a : appender) : Prop := a_failed a = true -> wal_limit <= a_num a + 1.

  Lemma rotate_sticky a : failed_at_limit a -> failed_at_limit (app_rotate c a) /\ (a_failed a = true -> a_failed (app_rotate c a) = true).
  Proof.
    intro Hlim. unfold app_rotate, failed_at_limit.
    destruct (N.leb_spec wal_limit (a_num a + 1)) as [H|H]; cbn [a_failed a_num]; split; intro Hf;
      [exact H|reflexivity|discriminate Hf|specialize (Hlim Hf); lia].
  Qed.

  Lemma step_sticky max a o :
    failed_at_limit a -> failed_at_limit (app_step c max a o) /\ (a_failed a = true -> a_failed (app_step c max a o) = true).
  Proof.
    intro Hlim. destruct o as [r|]; [|apply rotate_sticky, Hlim]. cbn [app_step]. unfold app_append.
    set (a1 := if max <? w_size (a_cur a) + lenN r then app_rotate c a else a).
    assert (H1 : failed_at_limit a1 /\ (a_failed a = true -> a_failed a1 = true))
      by (subst a1; destruct (_ <? _); [apply rotate_sticky, Hlim|split; trivial]).
    cbv zeta. destruct (a_failed a1) eqn:E; [split; [apply H1|trivial]|].
    unfold failed_at_limit. cbn [a_failed]. split; intro Hf; [discriminate Hf|discriminate (proj2 H1 Hf)].
  Qed.

  Lemma fold_failed max : forall ops a,
    failed_at_limit a -> a_failed a = true -> a_failed (fold_left (app_step c max) ops a) = true.
  Proof.
    induction ops as [|o ops IH]; intros a Hlim Hf; [exact Hf|].
    destruct (step_sticky max a o Hlim) as [Hlim' Hf']. apply IH; auto.
  Qed.

  Lemma step_not_failed max o ops a : a_failed a = false ->
    a_failed (fold_left (app_step c max) (o :: ops) a) = false -> a_failed (app_step c max a o) = false.
  Proof.
    intros Ha Hnf. destruct (a_failed (app_step c max a o)) eqn:E; [|reflexivity].
    rewrite <- Hnf. symmetry. apply (fold_failed max ops (app_step c max a o)); [|exact E].
    apply step_sticky. intro Hf. rewrite Hf in Ha. discriminate Ha.
  Qed.

  Lemma app_rotate_ok a : a_failed (app_rotate c a) = false ->
    app_rotate c a = mkApp (app_files a) (a_num a + 1) (w_open c) false.
  Proof.
    unfold app_rotate, app_files. destruct (wal_limit <=? a_num a + 1); [discriminate|reflexivity].
  Qed.

  Lemma app_append_ok max r a : a_failed (app_append c max r a) = false ->
    let a1 := if max <? w_size (a_cur a) + lenN r then app_rotate c a else a in
    a_failed a1 = false
    /\ app_append c max r a = mkApp (a_closed a1) (a_num a1) (fst (w_write c (Some r) (a_cur a1))) false.
  Proof.
    unfold app_append. cbv zeta. destruct (a_failed (if max <? _ then _ else a)) eqn:E; intro H;
      [congruence|split; reflexivity].
  Qed.

  (* the appender has closed the files of [groups], numbered from 0, and its open writer holds the records [cur] *)
  Definition ainv (a : appender) (groups : list (list bytes)) (cur : list bytes) : Prop :=
    map snd (a_closed a) = map wal_file groups
    /\ map fst (a_closed a) = map N.of_nat (seq 0 (length groups))
    /\ a_num a = N.of_nat (length groups)
    /\ wrep_recs c (a_cur a) (map Some cur).

  Definition files_are (a : appender) (groups : list (list bytes)) : Prop :=
    map snd (app_files a) = map wal_file groups
    /\ map fst (app_files a) = map N.of_nat (seq 0 (length groups)).

  Lemma ainv_new : ainv (app_new c) [] [].
  Proof. split; [reflexivity|]. split; [reflexivity|]. split; [reflexivity|apply wrep_recs_open]. Qed.

  Lemma ainv_files a groups cur : ainv a groups cur -> files_are a (groups ++ [cur]).
  Proof.
    intros (Hs & Hf & Hn & Hi). destruct (wrep_recs_close c _ _ Hi) as [Hc _].
    unfold files_are, app_files.
    rewrite !map_app, app_length, Hs, Hf, Nat.add_1_r, seq_S, map_app, Hn. cbn [map fst snd].
    rewrite Hc, <- wal_file_encs. split; reflexivity.
  Qed.

  Lemma ainv_rotate a groups cur : ainv a groups cur ->
    ainv (mkApp (app_files a) (a_num a + 1) (w_open c) false) (groups ++ [cur]) [].
  Proof.
    intro H. destruct (ainv_files _ _ _ H) as [Hs Hf]. destruct H as (_ & _ & Hn & _).
    split; [exact Hs|]. split; [exact Hf|]. split; [|apply wrep_recs_open].
    cbn [a_num]. rewrite app_length, Hn. cbn [length]. lia.
  Qed.

  Lemma ainv_write a groups cur r :
    ainv a groups cur -> rec_ok r ->
    ainv (mkApp (a_closed a) (a_num a) (fst (w_write c (Some r) (a_cur a))) false) groups (cur ++ [r]).
  Proof.
    intros (Hs & Hf & Hn & Hi) Hr. split; [exact Hs|]. split; [exact Hf|]. split; [exact Hn|].
    cbn [a_cur]. rewrite map_app. exact (wrep_recs_write c _ _ (Some r) Hi Hr).
  Qed.

  (* one forward induction from an arbitrary appender, for [log_groups] with any flags *)
  Lemma run_groups max : forall ops syncs a size cs done,
    ainv a (map (map snd) done) (map snd cs) -> size = w_size (a_cur a) -> a_failed a = false ->
    Forall wop_ok ops -> a_failed (fold_left (app_step c max) ops a) = false ->
    files_are (fold_left (app_step c max) ops a) (map (map snd) (log_groups c max ops syncs size cs done)).
  Proof.
    induction ops as [|o ops IH]; intros syncs a size cs done Hinv -> Ha Hok Hnf.
    - cbn [fold_left log_groups]. rewrite map_app. exact (ainv_files _ _ _ Hinv).
    - inversion_clear Hok as [|? ? Ho Hok']. pose proof (step_not_failed max o ops a Ha Hnf) as Hstep.
      assert (Hrot : ainv (mkApp (app_files a) (a_num a + 1) (w_open c) false)
                       (map (map snd) (done ++ [cs])) []).
      { rewrite map_app. apply ainv_rotate, Hinv. }
      cbn [fold_left] in Hnf |- *. destruct o as [r|]; cbn [log_groups app_step] in *.
      + destruct (app_append_ok max r a Hstep) as [Hf1 E]. rewrite E in *. clear E. cbv zeta in *.
        destruct (max <? w_size (a_cur a) + lenN r).
        * rewrite (app_rotate_ok a Hf1) in *.
          apply IH; [apply (ainv_write _ _ _ r Hrot Ho)|symmetry; apply w_cur_write|reflexivity|assumption..].
        * apply IH; [|symmetry; apply w_cur_write|reflexivity|assumption..].
          rewrite map_app. apply ainv_write; assumption.
      + rewrite (app_rotate_ok a Hstep) in *. apply IH; [exact Hrot|reflexivity..|assumption|assumption].
  Qed.

  Lemma log_groups_concat max : forall ops syncs size cs done,
    concat (map (map snd) (log_groups c max ops syncs size cs done))
    = concat (map (map snd) done) ++ map snd cs ++ appended ops.
  Proof.
    induction ops as [|[r|] ops IH]; intros syncs size cs done; cbn [log_groups appended].
    - rewrite map_app, concat_app. cbn [map concat]. rewrite !app_nil_r. reflexivity.
    - destruct (max <? size + lenN r); rewrite IH, ?map_app, ?concat_app; cbn [map concat snd];
        rewrite ?app_nil_r, <- ?app_assoc; reflexivity.
    - rewrite IH, map_app, concat_app. cbn [map concat]. rewrite app_nil_r, <- app_assoc. reflexivity.
  Qed.

  Lemma read_wal_file_S k f pos newest :
    read_wal_file (S k) c f pos newest
    = match read_next c f pos with
      | (Ok r, pos') => let '(rs, e) := read_wal_file k c f pos' newest in (payload r :: rs, e)
      | (Err e, _) =>
          ([], if match e with EOF => true | _ => newest && tolerated e end then None else Some e)
      end.
  Proof.
    cbn [read_wal_file]. destruct (read_next c f pos) as [[r|e] pos']; [reflexivity|].
    destruct e; try reflexivity; destruct newest; reflexivity.
  Qed.

  Lemma read_wal_file_of_read_all f newest : forall l fuel fuel' pos e,
    read_all fuel c f pos = map (fun r => Ok r) l ++ [Err e] ->
    e = EOF \/ newest = true /\ eofish e -> (length l < fuel')%nat ->
    read_wal_file fuel' c f pos newest = (map payload l, None).
  Proof.
    induction l as [|r l IH]; intros [|k] [|k'] pos e H He Hlen; try destruct (Nat.nlt_0_r _ Hlen);
      cbn [read_all map app] in H; try discriminate H; rewrite read_wal_file_S.
    - injection H as <-. destruct He as [He|[_ [He|He]]]; discriminate He.
    - destruct (read_next c f pos) as [[r'|e'] pos']; [discriminate H|].
      injection H as ->. destruct He as [->|[-> [->| ->]]]; reflexivity.
    - destruct (read_next c f pos) as [[r'|e'] pos']; [|discriminate H].
      injection H as -> Hrest. rewrite (IH k k' pos' e Hrest He) by exact (proj2 (Nat.succ_lt_mono _ _) Hlen).
      reflexivity.
  Qed.

  Lemma read_wal_file_of_file newest x (l : list bytes) fuel e :
    read_all fuel c x 8 = map (fun r => Ok r) (map Some l) ++ [Err e] ->
    N.of_nat (length l) <= lenN x -> e = EOF \/ newest = true /\ eofish e ->
    read_wal_file (S (length x)) c x 8 newest = (l, None).
  Proof.
    intros H Hl He. rewrite (read_wal_file_of_read_all x newest _ _ _ _ _ H He) by (rewrite map_length; unfold lenN in Hl; lia).
    rewrite map_map. f_equal. apply map_id.
  Qed.

  Definition contained (rs : list bytes) (n : N) : list bytes :=
    if n <? 8 then []
    else flat_map (fun r => match r with Some b => [b] | None => [] end)
                  (complete_prefix c (map (fun r => Some r) rs) (n - 8)).

  Lemma contained_eq rs n :
    contained rs n
    = if n <? 8 then []
      else flat_map (fun r : option bytes => match r with Some b => [b] | None => [] end)
                    (complete_prefix c (map Some rs) (n - 8)).
  Proof. reflexivity. Qed.

  Lemma flat_map_some (l : list bytes) :
    flat_map (fun r : option bytes => match r with Some b => [b] | None => [] end) (map Some l) = l.
  Proof. induction l as [|x l IH]; [reflexivity|]. cbn [map flat_map app]. rewrite IH. reflexivity. Qed.

  Lemma complete_some rs : forall b, exists l, complete_prefix c (map Some rs) b = map Some l.
  Proof.
    induction rs as [|r rs IH]; intro b; cbn [map complete_prefix]; [exists []; reflexivity|]. cbv zeta.
    destruct (_ <=? b); [|exists []; reflexivity].
    destruct (IH (b - lenN (enc_rec c (Some r)))) as (l & ->). exists (r :: l). reflexivity.
  Qed.

  Lemma contained_prefix (rs : list bytes) (n : N) : exists rest, rs = contained rs n ++ rest.
  Proof.
    rewrite contained_eq. destruct (n <? 8); [exists rs; reflexivity|].
    destruct (complete_prefix_prefix c (map Some rs) (n - 8)) as (rest & H).
    eexists. rewrite <- flat_map_app, <- H, flat_map_some. reflexivity.
  Qed.

  (* The replayer checks the compression code when it opens a file (r_open_wal_prefix), so the replay theorems need
     the bound; app_files_shape, log_groups_are_the_files and contained_complete hold for any code. *)
  Hypothesis ctype_ok : ctype c <= 3.

  Theorem app_files_shape (max : N) (ops : list wop) :
    Forall wop_ok ops -> a_failed (run max ops) = false ->
    exists groups : list (list bytes),
      map snd (app_files (run max ops)) = map wal_file groups
      /\ concat groups = appended ops
      /\ map fst (app_files (run max ops)) = map N.of_nat (seq 0 (length groups)).
  Proof using ctype_ok.
    intros Hok Hnf. exists (map (map snd) (log_groups c max ops [] 8 [] [])).
    destruct (run_groups max ops [] (app_new c) 8 [] [] ainv_new eq_refl eq_refl Hok Hnf) as [Hs Hf].
    split; [exact Hs|]. split; [apply log_groups_concat|exact Hf].
  Qed.

  (* [log_groups]: the appends of every log file with their flags, which the correspondence feeds to the
     write-buffer model file by file *)
  Theorem log_groups_are_the_files (max : N) (ops : list wop) (syncs : list bool) :
    Forall wop_ok ops -> a_failed (run max ops) = false ->
    map (fun g => wal_file (map snd g)) (log_groups c max ops syncs 8 [] [])
    = map snd (app_files (run max ops)).
  Proof using ctype_ok.
    intros Hok Hnf. rewrite <- (map_map (map snd) wal_file). symmetry.
    apply (run_groups max ops syncs (app_new c) 8 [] [] ainv_new eq_refl eq_refl Hok Hnf).
  Qed.

  Lemma r_open_wal_prefix rest : r_open (file_hdr (ctype c) ++ rest) = Ok 8.
  Proof. unfold r_open. rewrite parse_file_hdr_ok by exact ctype_ok. reflexivity. Qed.

  Lemma replay_files_cons g rest : Forall rec_ok g ->
    replay_files c (wal_file g :: rest)
    = let '(rs', e) := replay_files c rest in (g ++ rs', e).
  Proof.
    intro HF. cbn [replay_files]. rewrite wal_file_encs, r_open_wal_prefix.
    rewrite (read_wal_file_of_file _ _ g (S (length (map Some g))) EOF); [reflexivity| | |left; reflexivity].
    - apply (read_all_concat c codec_ok _ _ (file_hdr (ctype c)) (rec_ok_size_ok g HF)), Nat.lt_succ_diag_r.
    - pose proof (length_le_encs c (map Some g)) as H. rewrite map_length in H.
      rewrite lenN_app. exact (N.le_trans _ _ _ H (N.le_add_l _ _)).
  Qed.

  Lemma replay_files_intact groups : Forall (Forall rec_ok) groups ->
    replay_files c (map wal_file groups) = (concat groups, None).
  Proof.
    intro HF. induction HF as [|g groups Hg _ IH]; [reflexivity|].
    cbn [map concat]. rewrite replay_files_cons, IH by exact Hg. reflexivity.
  Qed.

  Theorem replay_is_appended (max : N) (ops : list wop) :
    Forall wop_ok ops -> a_failed (run max ops) = false ->
    replay c (app_files (run max ops)) = (appended ops, None).
  Proof.
    intros Hok Hnf. destruct (app_files_shape max ops Hok Hnf) as (groups & Hs & Hcat & _).
    unfold replay. rewrite Hs, replay_files_intact, Hcat; [reflexivity|].
    apply Forall_concat. rewrite Hcat. apply appended_ok, Hok.
  Qed.

  Lemma replay_cut last n :
    Forall rec_ok last -> n <= lenN (wal_file last) ->
    replay_files c [firstn (N.to_nat n) (wal_file last)] = (contained last n, None).
  Proof.
    intros HF Hn. rewrite contained_eq.
    cbn [replay_files]. destruct (N.ltb_spec n 8) as [H8|H8].
    - unfold r_open. rewrite parse_file_hdr_short by (unfold lenN in *; rewrite firstn_length; lia).
      destruct (_ =? 0); reflexivity.
    - rewrite wal_file_encs in Hn |- *. rewrite lenN_app in Hn.
      rewrite firstn_app_past, r_open_wal_prefix by exact H8.
      change (lenN (file_hdr (ctype c))) with 8 in *.
      destruct (read_all_cut_file c codec_ok (map Some last) (S (length (map Some last))) (file_hdr (ctype c))
                  (n - 8) (rec_ok_size_ok last HF) (Nat.lt_succ_diag_r _)) as (e & He & Hrd).
      pose proof (complete_prefix_fits c (map Some last) (n - 8)) as Hfit.
      destruct (complete_some last (n - 8)) as (l & Hl). rewrite Hl in *.
      rewrite flat_map_some, (read_wal_file_of_file true _ l _ e Hrd); [rewrite app_nil_r; reflexivity| |right; split; [reflexivity|exact He]].
      (* every complete record takes at least one of the n - 8 bytes *)
      pose proof (length_le_encs c (map Some l)) as Hlen. rewrite map_length in Hlen.
      rewrite lenN_app, lenN_firstn, N.min_l by lia. lia.
  Qed.

  Theorem wal_crash_prefix (closed : list (list bytes)) (last : list bytes) (n : N) :
    Forall (Forall rec_ok) closed -> Forall rec_ok last -> n <= lenN (wal_file last) ->
    replay_files c (map wal_file closed ++ [firstn (N.to_nat n) (wal_file last)])
    = (concat closed ++ contained last n, None).
  Proof.
    intros HF Hl Hn. induction HF as [|g closed Hg _ IH]; cbn [map app concat].
    - apply replay_cut; assumption.
    - rewrite replay_files_cons, IH, app_assoc by exact Hg. reflexivity.
  Qed.

  Lemma contained_complete (pre : list bytes) (r : bytes) (post : list bytes) (n : N) :
    lenN (wal_file (pre ++ [r])) <= n ->
    exists rest, contained (pre ++ r :: post) n = pre ++ r :: rest.
  Proof using ctype_ok.
    intro H. rewrite wal_file_encs, lenN_app, map_app in H. cbn [map] in H.
    change (lenN (file_hdr (ctype c))) with 8 in H.
    rewrite contained_eq, (proj2 (N.ltb_ge _ _)), map_app by lia. cbn [map].
    destruct (complete_prefix_full c (map Some pre) (Some r) (map Some post) (n - 8)) as (rest & ->); [lia|].
    eexists. rewrite flat_map_app, flat_map_some. reflexivity.
  Qed.

  (* C07, C13: whatever program of Write / Flush calls hands the bytes of a log file to the buffered writer, and
     whatever the buffer size, the file a kill leaves at ANY boundary between two calls to the underlying writer is a
     byte prefix of that log file - and replays, behind the intact older files, to the records completely contained
     in it. *)

  (* [append_only]: only then is [written_by] the content of the file (it ignores seeks); the proof does not read it *)
  Theorem log_boundary_replay :
    forall (cap : nat) (ops : list bop) (closed : list (list bytes)) (last : list bytes) (k : nat),
    append_only ops = true ->
    Forall (Forall rec_ok) closed -> Forall rec_ok last ->
    handed ops = wal_file last ->
    let file := written_by (firstn k (concat (fst (bw_run cap [] ops)))) in
    (exists rest, wal_file last = file ++ rest)
    /\ replay_files c (map wal_file closed ++ [file]) = (concat closed ++ contained last (lenN file), None).
  Proof using codec_ok ctype_ok.
    intros cap ops closed last k _ HF Hl Hh. cbv zeta.
    destruct (bw_file_is_prefix cap ops k) as [rest Hp]. cbv zeta in Hp.
    set (file := written_by (firstn k (concat (fst (bw_run cap [] ops))))) in *.
    rewrite Hh in Hp. split; [exists rest; exact Hp|].
    pose proof (bw_file_is_firstn cap ops k) as Hf. cbv zeta in Hf. fold file in Hf.
    rewrite Hh, <- (to_nat_lenN file) in Hf. rewrite Hf at 1. apply wal_crash_prefix; try assumption.
    rewrite Hp. unfold lenN. rewrite app_length. lia.
  Qed.

  Lemma append_only_app a b : append_only (a ++ b) = append_only a && append_only b.
  Proof. unfold append_only. apply forallb_app. Qed.

  Lemma rec_ops_handed sync r : handed (rec_ops c sync r) = enc_rec c (Some r).
  Proof.
    unfold rec_ops, enc_rec. cbv zeta. rewrite handed_app.
    destruct (compressed c); destruct sync; cbn [handed app]; rewrite ?app_nil_r; reflexivity.
  Qed.

  Lemma log_ops_handed rs : handed (log_ops c rs) = wal_file (map snd rs).
  Proof.
    unfold log_ops, wal_file. cbn [app handed]. f_equal.
    induction rs as [|[sync r] rs IH]; [reflexivity|].
    cbn [recs_ops map flat_map snd]. rewrite handed_app, rec_ops_handed, IH. reflexivity.
  Qed.

  Lemma log_ops_append_only rs : append_only (log_ops c rs) = true.
  Proof.
    unfold log_ops. rewrite append_only_app. cbn [append_only forallb andb].
    induction rs as [|[sync r] rs IH]; [reflexivity|].
    cbn [recs_ops]. rewrite append_only_app, IH, Bool.andb_true_r.
    unfold rec_ops. cbv zeta. rewrite append_only_app. destruct sync; reflexivity.
  Qed.

  (* for the log as the real program writes it, with ANY mix of synchronous and asynchronous appends *)
  Theorem log_program_boundary_replay :
    forall (cap : nat) (closed : list (list bytes)) (rs : list (bool * bytes)) (k : nat),
    Forall (Forall rec_ok) closed -> Forall rec_ok (map snd rs) ->
    let file := written_by (firstn k (concat (fst (bw_run cap [] (log_ops c rs))))) in
    replay_files c (map wal_file closed ++ [file])
    = (concat closed ++ contained (map snd rs) (lenN file), None).
  Proof using codec_ok ctype_ok.
    intros cap closed rs k HF Hl. cbv zeta.
    apply (log_boundary_replay cap (log_ops c rs) closed (map snd rs) k
             (log_ops_append_only rs) HF Hl (log_ops_handed rs)).
  Qed.

  Lemma recs_ops_app a b : recs_ops c (a ++ b) = recs_ops c a ++ recs_ops c b.
  Proof. induction a as [|[s r] a IH]; [reflexivity|]. cbn [app recs_ops]. rewrite IH, app_assoc. reflexivity. Qed.

  (* when a synchronous append returns, the file holds every record appended so far, whole (the fsync that follows
     makes it durable; C07 checks on the trace that it precedes the return) *)
  Theorem sync_append_reaches_the_file (cap : nat) (rs : list (bool * bytes)) (r : bytes) :
    written_by (concat (fst (bw_run cap [] (log_ops c (rs ++ [(true, r)])))))
    = wal_file (map snd (rs ++ [(true, r)])).
  Proof.
    (* a synchronous append is an asynchronous one followed by a Flush *)
    assert (E : log_ops c (rs ++ [(true, r)]) = log_ops c (rs ++ [(false, r)]) ++ [BFlush]).
    { unfold log_ops. rewrite !recs_ops_app, <- !app_assoc. cbn [recs_ops]. unfold rec_ops.
      rewrite !app_nil_r. reflexivity. }
    rewrite E, (bw_flushed_all cap _ BFlush (or_introl eq_refl)), log_ops_handed, !map_app. reflexivity.
  Qed.
End Facts.

Definition id_codec : codec := mkCodec 0 (fun x => x) (fun x => Ok x).

Example wal_example :
  let ops := [WAppend [1; 2; 3]; WAppend []; WRotate; WAppend [0x91; 0x8d; 0x4c]; WAppend [7]; WAppend [8; 8; 8; 8; 8; 8; 8; 8; 8; 8; 8; 8]] in
  let a := fold_left (app_step id_codec 30) ops (app_new id_codec) in
  map fst (app_files a) = [0; 1; 2]
  /\ replay id_codec (app_files a) = ([[1; 2; 3]; []; [0x91; 0x8d; 0x4c]; [7]; [8; 8; 8; 8; 8; 8; 8; 8; 8; 8; 8; 8]], None)
  /\ replay_files id_codec [snd (nth 0 (app_files a) (0, [])); firstn 20 (snd (nth 1 (app_files a) (0, [])))]
     = ([[1; 2; 3]; []], None).
Proof. vm_compute. repeat split; reflexivity. Qed.

Print Assumptions app_files_shape.
Print Assumptions replay_is_appended.
Print Assumptions wal_crash_prefix.
Print Assumptions contained_prefix.
Print Assumptions contained_complete.
Print Assumptions wal_example.
Print Assumptions log_boundary_replay.
Print Assumptions log_program_boundary_replay.
Print Assumptions sync_append_reaches_the_file.
Print Assumptions log_groups_are_the_files.
