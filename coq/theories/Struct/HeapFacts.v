(* The k-way merge over non-descending inputs returns every element exactly once, in non-descending
   key order, tagged with its input; an error in any input is never absorbed. *)
From GoSST Require Import Base.Bytes Base.Order Base.ListFacts Struct.Heap.
From Coq Require Import Lia Sorting.Sorted Sorting.Permutation.

Section Facts.
  Context {K V : Type}.
  Variable cmp : K -> K -> comparison.
  Hypothesis L : cmp_laws cmp.

  Definition all_ok (s : @stream K V) : Prop := Forall (fun x => exists kv, x = Ok kv) s.

  Fixpoint oks (s : @stream K V) : list (K * V) :=
    match s with
    | [] => []
    | Ok kv :: r => kv :: oks r
    | Err _ :: r => oks r
    end.

  Definition nondesc (l : list (K * V)) : Prop :=
    StronglySorted (fun a b => cmp (fst a) (fst b) <> Gt) l.

  Definition out_nondesc (l : list (K * V * N)) : Prop :=
    StronglySorted (fun a b => cmp (fst (fst a)) (fst (fst b)) <> Gt) l.

  Definition of_ctx (c : N) (out : list (K * V * N)) : list (K * V) :=
    map fst (filter (fun x => N.eqb (snd x) c) out).

  Notation elem := (@elem K V).
  Notation heap := (@heap K V).

  Definition kle (a b : elem) : Prop := cmp (ekey a) (ekey b) <> Gt.

  Lemma kle_refl a : kle a a.
  Proof. unfold kle. rewrite (cl_refl _ L). discriminate. Qed.

  Lemma kle_trans a b c : kle a b -> kle b c -> kle a c.
  Proof. unfold kle. apply (cmp_le_trans cmp L). Qed.

  Lemma less_true_kle a b : less cmp a b = true -> kle a b.
  Proof. unfold less, kle. destruct (cmp (ekey a) (ekey b)); congruence. Qed.

  Lemma less_false_kle a b : less cmp a b = false -> kle b a.
  Proof.
    unfold less, kle. intros H G. apply (cmp_gt_lt cmp L) in G. rewrite G in H. discriminate.
  Qed.

  Lemma div2_cases k : k = 2 * Nat.div2 k \/ k = 2 * Nat.div2 k + 1.
  Proof.
    pose proof (Nat.div2_odd k) as H. destruct (Nat.odd k); simpl Nat.b2n in H; lia.
  Qed.

  Lemma div2_lt k : 2 <= k -> 1 <= Nat.div2 k < k.
  Proof. pose proof (div2_cases k). lia. Qed.

  Lemma div2_pos k : 1 <= Nat.div2 k -> 2 <= k.
  Proof. destruct k as [|[|k]]; simpl; lia. Qed.

  Lemma hset_length (h : heap) i e : length (hset h i e) = length h.
  Proof. revert i; induction h as [|x r IH]; intros [|i]; simpl; auto. Qed.

  Lemma nth_hset_same (h : heap) i e d : i < length h -> nth i (hset h i e) d = e.
  Proof.
    revert i; induction h as [|x r IH]; intros [|i]; simpl; intros Hi; try lia; auto.
    apply IH. lia.
  Qed.

  Lemma nth_hset_other (h : heap) i k e d : i <> k -> nth k (hset h i e) d = nth k h d.
  Proof.
    revert i k; induction h as [|x r IH]; intros [|i] [|k]; simpl; intros Hik; try lia; auto.
  Qed.

  Lemma hset_exchange (h : heap) i e d :
    i < length h -> Permutation (nth i h d :: hset h i e) (e :: h).
  Proof.
    revert i; induction h as [|x r IH]; intros [|i]; simpl; intros Hi; try lia.
    - apply perm_swap.
    - eapply perm_trans; [apply perm_swap|].
      eapply perm_trans; [apply perm_skip, IH; lia|]. apply perm_swap.
  Qed.

  Lemma hput_length (h : heap) i e : length (hput h i e) = length h.
  Proof. apply hset_length. Qed.

  Lemma hget_hput_same (h : heap) i e d : 1 <= i <= length h -> hget (hput h i e) i d = e.
  Proof. intros Hi. unfold hget, hput. apply nth_hset_same. lia. Qed.

  Lemma hget_hput_other (h : heap) i k e d :
    1 <= i /\ 1 <= k /\ i <> k -> hget (hput h i e) k d = hget h k d.
  Proof. intros Hik. unfold hget, hput. apply nth_hset_other. lia. Qed.

  Lemma hget_indep (h : heap) i d d' : 1 <= i <= length h -> hget h i d = hget h i d'.
  Proof. intros Hi. unfold hget. apply nth_indep. lia. Qed.

  Lemma hput_exchange (h : heap) i e d :
    1 <= i <= length h -> Permutation (hget h i d :: hput h i e) (e :: h).
  Proof. intros Hi. unfold hget, hput. apply hset_exchange. lia. Qed.

  (* one round of either sift loop: slot j is copied into slot i and the loop goes on at j *)
  Lemma hput_shift (h : heap) i j e d R :
    1 <= i <= length h -> 1 <= j -> i <> j ->
    Permutation (hget (hput h i (hget h j d)) j d :: R) (e :: hput h i (hget h j d)) ->
    Permutation (hget h i d :: R) (e :: h).
  Proof.
    intros Hi Hj Hij H1. rewrite hget_hput_other in H1 by lia.
    pose proof (hput_exchange h i (hget h j d) d Hi) as H2.
    apply (Permutation_cons_inv (a := hget h j d)).
    eapply perm_trans; [apply perm_swap|].
    eapply perm_trans; [apply perm_skip, H1|].
    eapply perm_trans; [apply perm_swap|].
    eapply perm_trans; [apply perm_skip, H2|]. apply perm_swap.
  Qed.

  (* heap order for one default element of [hget]; each sift loop is proved for the default it
     passes, the element in hand *)
  Definition ordered (d : elem) (h : heap) : Prop :=
    forall k, 2 <= k <= length h -> kle (hget h (Nat.div2 k) d) (hget h k d).

  Definition heap_ok (h : heap) : Prop := forall d, ordered d h.

  Lemma ordered_indep d d' (h : heap) : ordered d h -> ordered d' h.
  Proof.
    intros H k Hk. destruct (div2_lt k) as [H1 H2]; [apply Hk|].
    rewrite (hget_indep h _ d' d), (hget_indep h k d' d) by lia. apply H, Hk.
  Qed.

  (* [h] is in heap order except that the content of slot [i] is to be ignored; both sift loops carry
     such a hole towards the place of the element they hold *)
  Definition hole (d : elem) (h : heap) (i : nat) : Prop :=
    (forall k, 2 <= k <= length h -> k <> i -> Nat.div2 k <> i ->
               kle (hget h (Nat.div2 k) d) (hget h k d)) /\
    (forall c, 2 <= c <= length h -> Nat.div2 c = i -> 2 <= i ->
               kle (hget h (Nat.div2 i) d) (hget h c d)).

  Lemma hput_edge d (h : heap) i x k :
    1 <= i <= length h -> 2 <= k <= length h ->
    (k = i -> kle (hget h (Nat.div2 i) d) x) ->
    (Nat.div2 k = i -> kle x (hget h k d)) ->
    (k <> i -> Nat.div2 k <> i -> kle (hget h (Nat.div2 k) d) (hget h k d)) ->
    kle (hget (hput h i x) (Nat.div2 k) d) (hget (hput h i x) k d).
  Proof.
    intros Hi Hk. destruct (div2_lt k) as [H1 H2]; [apply Hk|].
    assert (Hk1 : 1 <= k) by lia. intros Hself Hchild Hother.
    destruct (Nat.eq_dec k i) as [->|Hki].
    - rewrite hget_hput_same, hget_hput_other by lia. auto.
    - rewrite (hget_hput_other h i k) by lia.
      destruct (Nat.eq_dec (Nat.div2 k) i) as [Hd|Hd].
      + rewrite Hd, hget_hput_same; auto.
      + rewrite hget_hput_other by lia. auto.
  Qed.

  Lemma hole_fill d (h : heap) i e :
    1 <= i <= length h -> hole d h i ->
    (2 <= i -> kle (hget h (Nat.div2 i) d) e) ->
    (forall c, 2 <= c <= length h -> Nat.div2 c = i -> kle e (hget h c d)) ->
    ordered d (hput h i e).
  Proof.
    intros Hi [HA _] Hpar Hch k Hk. rewrite hput_length in Hk. apply hput_edge; try assumption.
    - intros ->. apply Hpar, Hk.
    - apply Hch, Hk.
    - apply HA, Hk.
  Qed.

  Lemma up_children d (h : heap) i x :
    2 <= i <= length h -> hole d h i -> kle x (hget h (Nat.div2 i) d) ->
    forall c, 2 <= c <= length h -> Nat.div2 c = Nat.div2 i ->
              kle x (hget (hput h i (hget h (Nat.div2 i) d)) c d).
  Proof.
    intros Hi [HA _] Hx c Hc Hcj. destruct (div2_lt i) as [Hj1 Hji]; [apply Hi|].
    destruct (Nat.eq_dec c i) as [->|Hci].
    - rewrite hget_hput_same by lia. exact Hx.
    - rewrite hget_hput_other by lia. apply (kle_trans _ _ _ Hx).
      rewrite <- Hcj. apply HA; [exact Hc|exact Hci|lia].
  Qed.

  Lemma hole_up d (h : heap) i :
    2 <= i <= length h -> hole d h i ->
    hole d (hput h i (hget h (Nat.div2 i) d)) (Nat.div2 i).
  Proof.
    intros Hi Hh. pose proof Hh as [HA HC]. destruct (div2_lt i) as [Hj1 Hji]; [apply Hi|]. split.
    - intros k Hk Hkj Hdj. rewrite hput_length in Hk. apply hput_edge; try assumption; [lia|..].
      + intros ->. contradiction Hdj. reflexivity.
      + intros Hd. apply HC; [exact Hk|exact Hd|apply Hi].
      + apply HA, Hk.
    - intros c Hc Hcj Hj2. rewrite hput_length in Hc. destruct (div2_lt _ Hj2) as [Hg1 Hgj].
      rewrite (hget_hput_other h i (Nat.div2 (Nat.div2 i))) by lia.
      apply up_children; try assumption. apply HA; lia.
  Qed.

  Lemma hole_down d (h : heap) i j :
    1 <= i -> Nat.div2 j = i -> j <= length h -> hole d h i ->
    (forall c, 2 <= c <= length h -> Nat.div2 c = i -> kle (hget h j d) (hget h c d)) ->
    hole d (hput h i (hget h j d)) j.
  Proof.
    intros Hi Hdj Hj [HA HC] Hmin.
    assert (Hj2 : 2 <= j) by (apply div2_pos; lia).
    destruct (div2_lt j Hj2) as [_ Hij]. rewrite Hdj in Hij. split.
    - intros k Hk Hkj Hd. rewrite hput_length in Hk. apply hput_edge; try assumption; [lia|..].
      + intros ->. apply HC; [lia|exact Hdj|apply Hk].
      + apply Hmin, Hk.
      + apply HA, Hk.
    - intros c Hc Hcj _. rewrite hput_length in Hc.
      destruct (div2_lt c) as [_ Hjc]; [apply Hc|]. rewrite Hcj in Hjc.
      rewrite Hdj, hget_hput_same, hget_hput_other by lia.
      rewrite <- Hcj. apply HA; [exact Hc|lia|lia].
  Qed.

  Lemma up_loop_ok fuel : forall (h : heap) (e : elem) i,
    1 <= i <= length h -> i <= fuel -> hole e h i ->
    (forall c, 2 <= c <= length h -> Nat.div2 c = i -> kle e (hget h c e)) ->
    ordered e (up_loop cmp fuel h e i).
  Proof.
    induction fuel as [|f IH]; intros h e i Hi Hf Hh Hch; [lia|]. simpl.
    destruct (Nat.ltb_spec 0 (Nat.div2 i)) as [Hj|Hj]; cbn [andb].
    - apply div2_pos in Hj. destruct (div2_lt i Hj) as [Hj1 Hji].
      destruct (less cmp e (hget h (Nat.div2 i) e)) eqn:Hless.
      + apply less_true_kle in Hless.
        apply IH; [rewrite hput_length; lia|lia|apply hole_up; [lia|exact Hh]|].
        intros c Hc Hcj. rewrite hput_length in Hc. apply up_children; try assumption. lia.
      + apply hole_fill; try assumption. intros _. apply less_false_kle, Hless.
    - apply hole_fill; try assumption. intros Hi2. destruct (div2_lt i Hi2). lia.
  Qed.

  Lemma up_loop_perm fuel : forall (h : heap) (e : elem) i,
    1 <= i <= length h -> Permutation (hget h i e :: up_loop cmp fuel h e i) (e :: h).
  Proof.
    induction fuel as [|f IH]; intros h e i Hi; simpl; [apply hput_exchange, Hi|].
    destruct (Nat.ltb_spec 0 (Nat.div2 i)) as [Hj|Hj]; cbn [andb]; [|apply hput_exchange, Hi].
    destruct (less cmp e (hget h (Nat.div2 i) e)); [|apply hput_exchange, Hi].
    destruct (div2_lt i (div2_pos i Hj)) as [_ Hji].
    apply (hput_shift h i (Nat.div2 i)); [exact Hi|exact Hj|lia|].
    apply IH. rewrite hput_length. lia.
  Qed.

  Lemma up_heap_snoc (h : heap) e :
    up_heap cmp (h ++ [e]) (length (h ++ [e]))
    = up_loop cmp (S (length h)) (h ++ [e]) e (S (length h)).
  Proof.
    unfold up_heap. rewrite app_length, Nat.add_1_r. simpl Nat.sub. rewrite Nat.sub_0_r.
    rewrite nth_error_app2, Nat.sub_diag by apply le_n. reflexivity.
  Qed.

  Lemma up_heap_snoc_ok (h : heap) e :
    heap_ok h -> heap_ok (up_heap cmp (h ++ [e]) (length (h ++ [e]))).
  Proof.
    intros Hok d. apply (ordered_indep e). rewrite up_heap_snoc.
    assert (Hl : length (h ++ [e]) = S (length h)) by (rewrite app_length; apply Nat.add_1_r).
    assert (Hlast : forall c, 2 <= c <= length (h ++ [e]) -> Nat.div2 c <> S (length h))
      by (intros c Hc; destruct (div2_lt c); lia).
    apply up_loop_ok; [lia|lia| |].
    - split.
      + intros k Hk Hne _. destruct (div2_lt k) as [H1 H2]; [apply Hk|]. unfold hget.
        rewrite !app_nth1 by lia. apply Hok. lia.
      + intros c Hc Hd. destruct (Hlast c Hc Hd).
    - intros c Hc Hd. destruct (Hlast c Hc Hd).
  Qed.

  Lemma up_heap_snoc_perm (h : heap) e :
    Permutation (up_heap cmp (h ++ [e]) (length (h ++ [e]))) (h ++ [e]).
  Proof.
    rewrite up_heap_snoc. apply (Permutation_cons_inv (a := e)).
    replace e with (hget (h ++ [e]) (S (length h)) e) at 1
      by (unfold hget; simpl; rewrite Nat.sub_0_r; apply nth_middle).
    apply up_loop_perm. rewrite app_length. simpl. lia.
  Qed.

  Lemma pick_child_shape (h : heap) n i d :
    Nat.div2 (pick_child cmp h n i d) = i /\ 2 * i <= pick_child cmp h n i d.
  Proof.
    unfold pick_child.
    destruct (Nat.leb (2 * i + 1) n && less cmp (hget h (2 * i + 1) d) (hget h (2 * i) d)).
    - rewrite Nat.add_1_r, Nat.div2_succ_double. lia.
    - rewrite Nat.div2_double. lia.
  Qed.

  Lemma pick_child_min (h : heap) i d c :
    2 <= c <= length h -> Nat.div2 c = i ->
    pick_child cmp h (length h) i d <= length h /\
    kle (hget h (pick_child cmp h (length h) i d) d) (hget h c d).
  Proof.
    intros Hc Hd. pose proof (div2_cases c) as Dc. rewrite Hd in Dc. unfold pick_child.
    destruct (Nat.leb_spec (2 * i + 1) (length h)) as [Hk|Hk]; cbn [andb].
    - destruct (less cmp (hget h (2 * i + 1) d) (hget h (2 * i) d)) eqn:Hl;
        (split; [lia|]); destruct Dc as [-> | ->]; try apply kle_refl.
      + apply less_true_kle, Hl.
      + apply less_false_kle, Hl.
    - split; [lia|]. replace c with (2 * i) by lia. apply kle_refl.
  Qed.

  Lemma down_loop_ok fuel : forall (h : heap) n (e : elem) i,
    n = length h -> 1 <= i <= n -> n < fuel + i -> hole e h i ->
    (2 <= i -> kle (hget h (Nat.div2 i) e) e) ->
    ordered e (down_loop cmp fuel h n e i (pick_child cmp h n i e)).
  Proof.
    induction fuel as [|f IH]; intros h n e i -> Hi Hf Hh Hpar; [lia|]. simpl.
    pose proof (pick_child_min h i e) as Hmin.
    destruct (pick_child_shape h (length h) i e) as [Hdj Hge].
    set (j := pick_child cmp h (length h) i e) in *.
    destruct (Nat.leb_spec j (length h)) as [Hj|Hj]; cbn [andb].
    - destruct (less cmp (hget h j e) e) eqn:Hless.
      + apply less_true_kle in Hless.
        apply IH; [symmetry; apply hput_length|lia|lia| |].
        * apply hole_down; try assumption; [lia|]. intros c Hc Hd. apply Hmin; assumption.
        * intros _. rewrite Hdj, hget_hput_same by exact Hi. exact Hless.
      + apply hole_fill; try assumption. intros c Hc Hd.
        apply (kle_trans _ _ _ (less_false_kle _ _ Hless)). apply Hmin; assumption.
    - apply hole_fill; try assumption. intros c Hc Hd.
      destruct (Hmin c Hc Hd) as [Hle _]. lia.
  Qed.

  Lemma down_loop_perm fuel : forall (h : heap) n (e : elem) i j,
    n = length h -> 1 <= i <= n -> i < j ->
    Permutation (hget h i e :: down_loop cmp fuel h n e i j) (e :: h).
  Proof.
    induction fuel as [|f IH]; intros h n e i j -> Hi Hij; simpl; [apply hput_exchange, Hi|].
    destruct (Nat.leb_spec j (length h)) as [Hj|Hj]; cbn [andb]; [|apply hput_exchange, Hi].
    destruct (less cmp (hget h j e) e); [|apply hput_exchange, Hi].
    apply (hput_shift h i j); [exact Hi|lia|lia|].
    apply IH; [symmetry; apply hput_length|lia|].
    destruct (pick_child_shape (hput h i (hget h j e)) (length h) j e). lia.
  Qed.

  Lemma down_heap_perm (h : heap) : Permutation (down_heap cmp h) h.
  Proof.
    destruct h as [|e r]; [constructor|]. unfold down_heap.
    apply (Permutation_cons_inv (a := e)).
    change e with (hget (e :: r) 1 e) at 1.
    apply down_loop_perm; [reflexivity|simpl; lia|].
    destruct (pick_child_shape (e :: r) (length (e :: r)) 1 e). lia.
  Qed.

  Lemma down_heap_ok (h : heap) : (forall d, hole d h 1) -> heap_ok (down_heap cmp h).
  Proof.
    intros Hb d. destruct h as [|e r]; [intros k Hk; simpl in Hk; lia|].
    apply (ordered_indep e). unfold down_heap.
    apply down_loop_ok; [reflexivity|simpl; lia|simpl; lia|apply Hb|lia].
  Qed.

  Lemma heap_root_min (h : heap) : heap_ok h ->
    forall k d, 1 <= k <= length h -> kle (hget h 1 d) (hget h k d).
  Proof.
    intros Hok k. induction k as [k IH] using (well_founded_induction lt_wf). intros d Hk.
    destruct (Nat.eq_dec k 1) as [->|Hk1]; [apply kle_refl|].
    destruct (div2_lt k) as [H1 H2]; [lia|].
    eapply kle_trans; [apply (IH (Nat.div2 k)); lia|]. apply Hok; lia.
  Qed.

  Lemma heap_top_min (top : elem) rest e :
    heap_ok (top :: rest) -> In e rest -> kle top e.
  Proof.
    intros Hok Hin. destruct (In_nth rest e top Hin) as (n & Hn & Hnth).
    pose proof (heap_root_min _ Hok (S (S n)) top) as H. unfold hget in H. simpl in H.
    rewrite Hnth in H. apply H. lia.
  Qed.

  (* swap(1,size), chop in [next]: the last element becomes the root *)
  Definition pop_last (top : elem) (rest : heap) : heap :=
    removelast (hput (top :: rest) 1 (hget (top :: rest) (length (top :: rest)) top)).

  Lemma pop_last_snoc (top z : elem) r : pop_last top (r ++ [z]) = z :: r.
  Proof.
    unfold pop_last, hput, hget.
    replace (length (top :: r ++ [z]) - 1) with (length (top :: r))
      by (simpl; rewrite app_length; simpl; lia).
    change (top :: r ++ [z]) with ((top :: r) ++ [z]).
    rewrite nth_middle. apply (removelast_last (z :: r)).
  Qed.

  Lemma pop_last_perm (top : elem) rest : Permutation (pop_last top rest) rest.
  Proof.
    destruct rest as [|z r _] using rev_ind; [apply Permutation_refl|].
    rewrite pop_last_snoc. apply Permutation_cons_append.
  Qed.

  Lemma hole_root_transfer (h h' : heap) :
    heap_ok h -> length h' <= length h ->
    (forall k d, 2 <= k <= length h' -> hget h' k d = hget h k d) ->
    forall d, hole d h' 1.
  Proof.
    intros Hok Hlen Hsame d. split; [|intros; lia].
    intros k Hk _ Hd. destruct (div2_lt k) as [H1 H2]; [apply Hk|].
    rewrite !Hsame by lia. apply Hok. lia.
  Qed.

  Lemma pop_last_hole (top : elem) rest :
    heap_ok (top :: rest) -> forall d, hole d (pop_last top rest) 1.
  Proof.
    intros Hok. destruct rest as [|z r _] using rev_ind.
    - intros d. split; intros k Hk; simpl in Hk; lia.
    - rewrite pop_last_snoc. apply (hole_root_transfer _ _ Hok).
      + simpl. rewrite app_length. lia.
      + intros k d Hk. unfold hget. destruct k as [|[|k]]; try lia. simpl in *.
        symmetry. apply app_nth1. lia.
  Qed.

  Lemma refill_hole (top e' : elem) rest :
    heap_ok (top :: rest) -> forall d, hole d (e' :: rest) 1.
  Proof.
    intros Hok. apply (hole_root_transfer _ _ Hok); [simpl; lia|].
    intros k d Hk. unfold hget. destruct k as [|[|k]]; try lia. reflexivity.
  Qed.

  Definition content (e : elem) : list (K * V) := (ekey e, eval_ e) :: oks (erest e).
  Definition elem_ok (e : elem) : Prop := all_ok (erest e) /\ nondesc (content e).
  (* the fuel that a drain needs *)
  Definition hsize (h : heap) : nat := list_sum (map (fun e => S (length (erest e))) h).
  Definition streams_ok (h : heap) : Prop := Forall elem_ok h /\ NoDup (map ectx h).

  Lemma streams_ok_perm (h h' : heap) : Permutation h h' -> streams_ok h -> streams_ok h'.
  Proof.
    intros Hp [Hel Hnd]. split; [eapply Permutation_Forall; eassumption|].
    eapply Permutation_NoDup; [apply Permutation_map, Hp|exact Hnd].
  Qed.

  Lemma hsize_perm (h h' : heap) : Permutation h h' -> hsize h = hsize h'.
  Proof. intros Hp. apply Permutation_list_sum, Permutation_map, Hp. Qed.

  Lemma all_ok_err er (r : @stream K V) : ~ all_ok (Err er :: r).
  Proof. intros H. apply Forall_inv in H. destruct H as [kv H]. discriminate. Qed.

  Definition popped (top : elem) (rest X : heap) : Prop :=
    (erest top = [] /\ X = rest) \/
    (exists k v r, erest top = Ok (k, v) :: r /\ X = mkElem k v (ectx top) r :: rest).

  Lemma next_cases (top : elem) rest :
    (exists er r, erest top = Err er :: r /\ next cmp (top :: rest) = Err er) \/
    (exists X h', popped top rest X
       /\ next cmp (top :: rest) = Ok (Some (ekey top, eval_ top, ectx top), h')
       /\ Permutation h' X).
  Proof.
    destruct (erest top) as [|[[k v]|er] r] eqn:Hr; unfold next; rewrite Hr; cbn [fill_next].
    - right. exists rest, (down_heap cmp (pop_last top rest)).
      split; [left; split; [exact Hr|reflexivity]|]. split; [reflexivity|].
      eapply perm_trans; [apply down_heap_perm|apply pop_last_perm].
    - right. eexists _, _. split; [right; exists k, v, r; split; [exact Hr|reflexivity]|].
      split; [reflexivity|apply down_heap_perm].
    - left. exists er, r. split; reflexivity.
  Qed.

  Lemma next_ok (top : elem) rest :
    heap_ok (top :: rest) ->
    match next cmp (top :: rest) with Ok (_, h') => heap_ok h' | Err _ => True end.
  Proof.
    intros Hok. unfold next. destruct (erest top) as [|[[k v]|er] r]; cbn [fill_next];
      [| |exact I]; apply down_heap_ok.
    - apply pop_last_hole, Hok.
    - apply (refill_hole top), Hok.
  Qed.

  Lemma popped_sub (top : elem) rest X e : popped top rest X -> In e rest -> In e X.
  Proof.
    intros [[_ ->]|(k & v & r & _ & ->)] Hin; [exact Hin|right; exact Hin].
  Qed.

  Lemma popped_ctx (top : elem) rest X c :
    popped top rest X -> In c (map ectx X) -> In c (map ectx (top :: rest)).
  Proof.
    intros [[_ ->]|(k & v & r & _ & ->)] Hin; [right; exact Hin|exact Hin].
  Qed.

  Lemma popped_size (top : elem) rest X :
    popped top rest X -> hsize (top :: rest) = S (hsize X).
  Proof.
    intros [[Hr ->]|(k & v & r & Hr & ->)]; unfold hsize; simpl; rewrite Hr; reflexivity.
  Qed.

  Lemma popped_inv (top : elem) rest X :
    popped top rest X -> streams_ok (top :: rest) -> streams_ok X.
  Proof.
    intros Hp [Hel Hnd]. simpl in Hnd. apply NoDup_cons_iff in Hnd. destruct Hnd as [Hni Hnd].
    pose proof (Forall_inv Hel) as [Hall Hsort]. apply Forall_inv_tail in Hel.
    destruct Hp as [[_ ->]|(k & v & r & Hr & ->)]; [split; assumption|]. split.
    - constructor; [|exact Hel]. unfold elem_ok, content in *. simpl. rewrite Hr in *.
      split; [apply (Forall_inv_tail Hall)|]. simpl in Hsort.
      apply StronglySorted_inv in Hsort. apply Hsort.
    - simpl. constructor; assumption.
  Qed.

  Lemma popped_top (top : elem) rest X :
    popped top rest X -> NoDup (map ectx (top :: rest)) ->
    (oks (erest top) = [] /\ ~ In (ectx top) (map ectx X)) \/
    (exists e', In e' X /\ ectx e' = ectx top /\ content e' = oks (erest top)).
  Proof.
    intros Hp Hnd. simpl in Hnd. apply NoDup_cons_iff in Hnd. destruct Hnd as [Hni _].
    destruct Hp as [[Hr ->]|(k & v & r & Hr & ->)].
    - left. rewrite Hr. split; [reflexivity|exact Hni].
    - right. exists (mkElem k v (ectx top) r). split; [left; reflexivity|].
      split; [reflexivity|]. rewrite Hr. reflexivity.
  Qed.

  Definition key_below (k : K) (l : list (K * V)) : Prop :=
    Forall (fun kv => cmp k (fst kv) <> Gt) l.

  Lemma elem_ok_below (e : elem) : elem_ok e -> key_below (ekey e) (content e).
  Proof.
    intros [_ Hs]. unfold content in *. apply StronglySorted_inv in Hs. destruct Hs as [_ Hf].
    constructor; [|exact Hf]. simpl. rewrite (cl_refl _ L). discriminate.
  Qed.

  Lemma key_below_trans k k' l : cmp k k' <> Gt -> key_below k' l -> key_below k l.
  Proof.
    intros Hk Hl. unfold key_below in *. eapply Forall_impl; [|exact Hl].
    intros kv Hkv. simpl in Hkv. eapply (cmp_le_trans cmp L); eassumption.
  Qed.

  Lemma popped_below (top : elem) rest X e :
    popped top rest X -> heap_ok (top :: rest) -> Forall elem_ok (top :: rest) ->
    In e X -> key_below (ekey top) (content e).
  Proof.
    intros Hp Hok Hel Hin. rewrite Forall_forall in Hel.
    assert (Hrest : forall e0, In e0 rest -> key_below (ekey top) (content e0)).
    { intros e0 H0. apply (key_below_trans _ (ekey e0)).
      - apply (heap_top_min top rest e0 Hok H0).
      - apply elem_ok_below, Hel. right. exact H0. }
    destruct Hp as [[_ ->]|(k & v & r & Hr & ->)]; [apply Hrest; exact Hin|].
    destruct Hin as [<-|Hin]; [|apply Hrest; exact Hin].
    destruct (Hel top (or_introl eq_refl)) as [_ Hs]. unfold content in *. simpl.
    rewrite Hr in Hs. simpl in Hs. apply StronglySorted_inv in Hs. apply Hs.
  Qed.

  Lemma of_ctx_cons_eq c (x : K * V * N) l :
    snd x = c -> of_ctx c (x :: l) = fst x :: of_ctx c l.
  Proof. intros <-. unfold of_ctx. simpl. rewrite N.eqb_refl. reflexivity. Qed.

  Lemma of_ctx_cons_ne c (x : K * V * N) l :
    snd x <> c -> of_ctx c (x :: l) = of_ctx c l.
  Proof.
    intros Hne. unfold of_ctx. simpl. apply N.eqb_neq in Hne. rewrite Hne. reflexivity.
  Qed.

  Lemma of_ctx_none c (l : list (K * V * N)) :
    (forall y, In y l -> snd y <> c) -> of_ctx c l = [].
  Proof.
    induction l as [|x l IH]; intros H; [reflexivity|].
    rewrite of_ctx_cons_ne by (apply H; left; reflexivity).
    apply IH. intros y Hy. apply H. right. exact Hy.
  Qed.

  Lemma in_of_ctx (y : K * V * N) l : In y l -> In (fst y) (of_ctx (snd y) l).
  Proof.
    intros Hin. apply in_map_filter. exists y. split; [exact Hin|]. split; [apply N.eqb_refl|reflexivity].
  Qed.

  Lemma of_ctx_in c kv (l : list (K * V * N)) : In kv (of_ctx c l) -> In (kv, c) l.
  Proof.
    intros H. apply in_map_filter in H. destruct H as ([kv' c'] & Hx & Hc & <-).
    apply N.eqb_eq in Hc. simpl in Hc. subst c'. exact Hx.
  Qed.

  Definition drain_spec (h : heap) (out : list (K * V * N)) : Prop :=
    out_nondesc out
    /\ (forall e, In e h -> of_ctx (ectx e) out = content e)
    /\ Forall (fun x => In (snd x) (map ectx h)) out
    /\ length out = hsize h.

  Lemma drain_spec_perm (h h' : heap) out :
    Permutation h h' -> drain_spec h out -> drain_spec h' out.
  Proof.
    intros Hp (Hs & Hof & Htag & Hlen). split; [exact Hs|]. split; [|split].
    - intros e He. apply Hof. eapply Permutation_in; [apply Permutation_sym, Hp|exact He].
    - eapply Forall_impl; [|exact Htag]. intros x.
      apply Permutation_in, Permutation_map, Hp.
    - rewrite Hlen. apply hsize_perm, Hp.
  Qed.

  Lemma drain_step (top : elem) rest X out :
    heap_ok (top :: rest) -> streams_ok (top :: rest) -> popped top rest X ->
    drain_spec X out ->
    drain_spec (top :: rest) ((ekey top, eval_ top, ectx top) :: out).
  Proof.
    intros Hok [Hel Hnd] Hp (Hs & Hof & Htag & Hlen). rewrite Forall_forall in Htag.
    repeat split.
    - apply SSorted_cons; [exact Hs|]. apply Forall_forall. intros y Hy. simpl.
      pose proof (Htag y Hy) as Hc. apply in_map_iff in Hc. destruct Hc as (e & Hec & HeX).
      pose proof (in_of_ctx y out Hy) as Hy'. rewrite <- Hec, (Hof e HeX) in Hy'.
      pose proof (popped_below top rest X e Hp Hok Hel HeX) as Hb.
      unfold key_below in Hb. rewrite Forall_forall in Hb. apply (Hb _ Hy').
    - intros e [<-|Hin].
      + rewrite of_ctx_cons_eq by reflexivity. unfold content. simpl. f_equal.
        destruct (popped_top top rest X Hp Hnd) as [[Hnil Hni]|(e' & He' & Hc' & Hcont)].
        * rewrite Hnil. apply of_ctx_none. intros y Hy Hc. apply Hni. rewrite <- Hc.
          apply Htag, Hy.
        * rewrite <- Hc', <- Hcont. apply Hof, He'.
      + simpl in Hnd. apply NoDup_cons_iff in Hnd. destruct Hnd as [Hni _].
        rewrite of_ctx_cons_ne.
        * apply Hof. eapply popped_sub; eassumption.
        * simpl. intros Hc. apply Hni. rewrite Hc. apply in_map. exact Hin.
    - constructor; [simpl; left; reflexivity|]. apply Forall_forall. intros y Hy.
      apply (popped_ctx top rest X _ Hp). apply Htag, Hy.
    - simpl length. rewrite Hlen. symmetry. apply popped_size, Hp.
  Qed.

  Lemma drain_ok fuel : forall h : heap,
    heap_ok h -> streams_ok h -> hsize h < fuel ->
    exists out, drain_heap cmp fuel h = Ok out /\ drain_spec h out.
  Proof.
    induction fuel as [|f IH]; intros h Hok Hst Hf; [lia|].
    destruct h as [|top rest].
    - exists []. split; [reflexivity|]. repeat split; try constructor. intros e [].
    - destruct (next_cases top rest) as [(er & r & Hr & _)|(X & h' & Hp & Hnext & Hperm)].
      { destruct Hst as [Hel _]. apply Forall_inv in Hel. destruct Hel as [Hall _].
        rewrite Hr in Hall. destruct (all_ok_err _ _ Hall). }
      apply Permutation_sym in Hperm.
      destruct (IH h') as (out & Hdrain & Hspec).
      + pose proof (next_ok top rest Hok) as Hok'. rewrite Hnext in Hok'. exact Hok'.
      + eapply streams_ok_perm, popped_inv; eassumption.
      + rewrite <- (hsize_perm _ _ Hperm). rewrite (popped_size top rest X Hp) in Hf. lia.
      + exists ((ekey top, eval_ top, ectx top) :: out). split.
        * cbn [drain_heap]. rewrite Hnext, Hdrain. reflexivity.
        * apply (drain_step top rest X); try assumption.
          apply (drain_spec_perm h'); [apply Permutation_sym, Hperm|exact Hspec].
  Qed.

  Definition first_elem (c : N) (s : @stream K V) : heap :=
    match s with Ok (k, v) :: r => [mkElem k v c r] | _ => [] end.

  Definition elems_of (its : list (N * @stream K V)) : heap :=
    flat_map (fun p => first_elem (fst p) (snd p)) its.

  Lemma elems_of_cons c s its : elems_of ((c, s) :: its) = first_elem c s ++ elems_of its.
  Proof. reflexivity. Qed.

  Definition init_res (its : list (N * @stream K V)) (h : heap) (x : res heap) : Prop :=
    match x with
    | Err e => exists c r, In (c, Err e :: r) its
    | Ok hf => Permutation hf (h ++ elems_of its) /\ forall c e r, ~ In (c, Err e :: r) its
    end.

  Lemma init_res_cons c s its (h h1 : heap) x :
    Permutation h1 (h ++ first_elem c s) -> (forall e r, s <> Err e :: r) ->
    init_res its h1 x -> init_res ((c, s) :: its) h x.
  Proof.
    intros Hp Hs. destruct x as [hf|e]; unfold init_res.
    - intros (Hperm & Hno). rewrite elems_of_cons, app_assoc. split.
      + eapply perm_trans; [exact Hperm|]. apply Permutation_app_tail, Hp.
      + intros c' e r [Heq|Hin]; [inversion Heq; subst; eapply Hs; reflexivity|eapply Hno, Hin].
    - intros (c' & r & Hin). exists c', r. right. exact Hin.
  Qed.

  Lemma init_from_spec (its : list (N * @stream K V)) :
    forall h, init_res its h (init_from cmp its h).
  Proof.
    induction its as [|[c s] its IH]; intros h.
    - simpl. rewrite app_nil_r. auto using Permutation_refl.
    - destruct s as [|[[k v]|er] r]; cbn [init_from fill_next].
      + apply (init_res_cons _ _ _ h h); [|discriminate|apply IH].
        cbn [first_elem]. rewrite app_nil_r. apply Permutation_refl.
      + eapply init_res_cons; [apply up_heap_snoc_perm|discriminate|apply IH].
      + exists c, r. left. reflexivity.
  Qed.

  Lemma init_from_ok (its : list (N * @stream K V)) : forall h hf : heap,
    heap_ok h -> init_from cmp its h = Ok hf -> heap_ok hf.
  Proof.
    induction its as [|[c s] its IH]; intros h hf Hok; [intros H; inversion H; subst; exact Hok|].
    destruct s as [|[[k v]|er] r]; cbn [init_from fill_next]; [apply IH, Hok| |discriminate].
    apply IH, up_heap_snoc_ok, Hok.
  Qed.

  Lemma elems_of_in (its : list (N * @stream K V)) e :
    In e (elems_of its) -> In (ectx e, Ok (ekey e, eval_ e) :: erest e) its.
  Proof.
    unfold elems_of. intros Hin. apply in_flat_map in Hin. destruct Hin as ([c s] & Hp & He).
    simpl in He. destruct s as [|[[k v]|er] r]; try contradiction.
    destruct He as [<-|[]]. simpl. exact Hp.
  Qed.

  Lemma in_elems_of (its : list (N * @stream K V)) c k v r :
    In (c, Ok (k, v) :: r) its -> In (mkElem k v c r) (elems_of its).
  Proof.
    intros Hin. unfold elems_of. apply in_flat_map. exists (c, Ok (k, v) :: r).
    split; [exact Hin|]. simpl. left. reflexivity.
  Qed.

  Lemma elems_of_ctx (its : list (N * @stream K V)) c :
    In c (map ectx (elems_of its)) -> In c (map fst its).
  Proof.
    intros Hin. apply in_map_iff in Hin. destruct Hin as (e & <- & He).
    apply elems_of_in in He. apply (in_map fst) in He. exact He.
  Qed.

  Lemma elems_of_nodup (its : list (N * @stream K V)) :
    NoDup (map fst its) -> NoDup (map ectx (elems_of its)).
  Proof.
    induction its as [|[c s] its IH]; intros Hnd; [constructor|].
    simpl in Hnd. apply NoDup_cons_iff in Hnd. destruct Hnd as [Hni Hnd].
    rewrite elems_of_cons. destruct s as [|[[k v]|er] r]; simpl; try (apply IH; exact Hnd).
    constructor; [|apply IH; exact Hnd]. intros Hin. apply Hni, elems_of_ctx, Hin.
  Qed.

  Lemma elems_of_ok (its : list (N * @stream K V)) :
    Forall (fun p => all_ok (snd p) /\ nondesc (oks (snd p))) its ->
    Forall elem_ok (elems_of its).
  Proof.
    intros H. rewrite Forall_forall in *. intros e He. apply elems_of_in in He.
    destruct (H _ He) as [Hall Hs]. simpl in *. split; [apply (Forall_inv_tail Hall)|exact Hs].
  Qed.

  Lemma elems_of_size (its : list (N * @stream K V)) :
    Forall (fun p => all_ok (snd p)) its -> hsize (elems_of its) = total_len its.
  Proof.
    induction its as [|[c s] its IH]; intros Hall; [reflexivity|].
    pose proof (Forall_inv Hall) as Hs. apply Forall_inv_tail in Hall. simpl in Hs.
    rewrite elems_of_cons. unfold hsize in *. simpl total_len. rewrite map_app, list_sum_app, (IH Hall).
    destruct s as [|[[k v]|er] r]; simpl; try lia.
    apply Forall_inv in Hs. destruct Hs as [kv Hkv]. discriminate.
  Qed.

  Theorem heap_merge_sorted (its : list (N * @stream K V)) :
    NoDup (map fst its) ->
    Forall (fun p => all_ok (snd p) /\ nondesc (oks (snd p))) its ->
    exists out,
      merge_all cmp its = Ok out
      /\ out_nondesc out
      /\ (forall c s, In (c, s) its -> of_ctx c out = oks s)
      /\ Forall (fun x => In (snd x) (map fst its)) out
      /\ length out = total_len its.
  Proof.
    intros Hnd Hits.
    assert (Hall : Forall (fun p => all_ok (snd p)) its)
      by (eapply Forall_impl; [|exact Hits]; intros p Hp; apply Hp).
    assert (Hbad : forall c e r, ~ In (c, Err e :: r) its).
    { intros c e r Hin. rewrite Forall_forall in Hall. apply (all_ok_err e r), (Hall _ Hin). }
    unfold merge_all, init. pose proof (init_from_spec its []) as Hinit.
    pose proof (init_from_ok its []) as Hokf.
    destruct (init_from cmp its []) as [hf|e];
      [|destruct Hinit as (c & r & Hin); destruct (Hbad _ _ _ Hin)].
    destruct Hinit as (Hperm & _). simpl in Hperm. apply Permutation_sym in Hperm.
    destruct (drain_ok (S (total_len its)) hf) as (out & Hdrain & Hspec).
    { apply Hokf; [|reflexivity]. intros d k Hk. simpl in Hk. lia. }
    { apply (streams_ok_perm _ _ Hperm). split; [apply elems_of_ok, Hits|apply elems_of_nodup, Hnd]. }
    { rewrite <- (hsize_perm _ _ Hperm), (elems_of_size its Hall). lia. }
    apply (drain_spec_perm _ _ _ (Permutation_sym Hperm)) in Hspec.
    destruct Hspec as (Hs & Hof & Htag & Hlen).
    assert (Htag' : forall y, In y out -> exists e, In e (elems_of its) /\ ectx e = snd y).
    { rewrite Forall_forall in Htag. intros y Hy. pose proof (Htag y Hy) as Hc.
      apply in_map_iff in Hc. destruct Hc as (e & Hec & He). exists e. split; assumption. }
    exists out. split; [exact Hdrain|]. split; [exact Hs|]. split; [|split].
    - intros c s Hcs. destruct s as [|[[k v]|er] r].
      + apply of_ctx_none. intros y Hy Hc. destruct (Htag' y Hy) as (e & He & Hec).
        apply elems_of_in in He. rewrite Hec, Hc in He.
        pose proof (NoDup_fst_fun its c _ _ Hnd Hcs He) as Habs. discriminate.
      + apply in_elems_of in Hcs. apply Hof in Hcs. exact Hcs.
      + destruct (Hbad _ _ _ Hcs).
    - apply Forall_forall. intros y Hy. destruct (Htag' y Hy) as (e & He & Hec).
      rewrite <- Hec. apply elems_of_ctx, in_map, He.
    - rewrite Hlen. apply elems_of_size, Hall.
  Qed.

  (* an element whose residual stream holds an error stays in the heap until it fails *)
  Definition has_err (h : heap) : Prop :=
    exists e, In e h /\ exists er, In (Err er) (erest e).

  Lemma has_err_perm (h h' : heap) : Permutation h h' -> has_err h -> has_err h'.
  Proof.
    intros Hp (e & He & Her). exists e. split; [eapply Permutation_in; eassumption|exact Her].
  Qed.

  Lemma popped_err (top : elem) rest X : popped top rest X -> has_err (top :: rest) -> has_err X.
  Proof.
    intros Hp (e & [<-|He] & er & Her).
    - destruct Hp as [[Hr _]|(k & v & r & Hr & ->)]; rewrite Hr in Her; [destruct Her|].
      destruct Her as [Her|Her]; [discriminate|].
      exists (mkElem k v (ectx top) r). split; [left; reflexivity|exists er; exact Her].
    - exists e. split; [eapply popped_sub; eassumption|exists er; exact Her].
  Qed.

  Lemma next_err (h : heap) :
    has_err h ->
    (exists e, next cmp h = Err e)
    \/ (exists x h', next cmp h = Ok (Some x, h') /\ has_err h').
  Proof.
    intros Hbad. destruct h as [|top rest]; [destruct Hbad as (e & [] & _)|].
    destruct (next_cases top rest) as [(er & r & _ & ->)|(X & h' & Hp & -> & Hperm)].
    - left. exists er. reflexivity.
    - right. eexists _, h'. split; [reflexivity|].
      apply (has_err_perm X); [apply Permutation_sym, Hperm|]. eapply popped_err; eassumption.
  Qed.

  Lemma drain_err fuel : forall h : heap,
    has_err h -> exists e, drain_heap cmp fuel h = Err e.
  Proof.
    induction fuel as [|f IH]; intros h Hbad; [exists OutOfFuel; reflexivity|]. cbn [drain_heap].
    destruct (next_err h Hbad) as [[e ->]|(x & h' & -> & Hbad')]; [exists e; reflexivity|].
    destruct (IH h' Hbad') as [e ->]. exists e. reflexivity.
  Qed.

  Lemma init_err (its : list (N * @stream K V)) :
    (exists c s e, In (c, s) its /\ In (Err e) s) ->
    (exists e, init cmp its = Err e) \/ (exists hf, init cmp its = Ok hf /\ has_err hf).
  Proof.
    intros (c & s & e & Hin & He). unfold init. pose proof (init_from_spec its []) as Hi.
    destruct (init_from cmp its []) as [hf|e0]; [right|left; exists e0; reflexivity].
    exists hf. split; [reflexivity|]. destruct Hi as (Hperm & Hno).
    apply (has_err_perm _ _ (Permutation_sym Hperm)). simpl.
    destruct s as [|[[k v]|er] r]; [destruct He| |destruct (Hno _ _ _ Hin)].
    destruct He as [He|He]; [discriminate|].
    exists (mkElem k v c r). split; [apply in_elems_of, Hin|exists e; exact He].
  Qed.

  Theorem heap_merge_error (its : list (N * @stream K V)) :
    (exists c s e, In (c, s) its /\ In (Err e) s) ->
    exists e, merge_all cmp its = Err e.
  Proof.
    intros Hbad. unfold merge_all.
    destruct (init_err its Hbad) as [[e ->]|(hf & -> & Hhf)].
    - exists e. reflexivity.
    - apply drain_err, Hhf.
  Qed.
End Facts.

Example heap_example :
  merge_all bcmp [(0%N, [Ok ([1%N], [10%N]); Ok ([5%N], [50%N])]); (1%N, []); (2%N, [Ok ([1%N], [11%N]); Ok ([3%N], [30%N])])]
  = Ok [([1%N], [10%N], 0%N); ([1%N], [11%N], 2%N); ([3%N], [30%N], 2%N); ([5%N], [50%N], 0%N)].
Proof. vm_compute. reflexivity. Qed.

Print Assumptions heap_merge_sorted.
Print Assumptions heap_merge_error.
Print Assumptions heap_example.
