(* for every insertion order, every tower height assignment and every comparator satisfying cmp_laws,
   the model behaves as a sorted map. *)
From GoSST Require Import Base.Bytes Base.Order Base.ListFacts Struct.SkipList.
From Coq Require Import Lia Sorting.Sorted Sorting.Permutation.

Section Facts.
  Context {K V : Type}.
  Variable cmp : K -> K -> comparison.
  Hypothesis L : cmp_laws cmp.

  Definition sorted (m : @sl K V) : Prop :=
    StronglySorted (fun a b => cmp (tkey a) (tkey b) = Lt) m.
  Definition heights_ok (m : @sl K V) : Prop := Forall (fun t => 1 <= th t)%nat m.

  (* [drop_lt key m] is what findGreaterOrEqual returns (find_ge_spec), [assoc] is the map that the
     key-value list of [m] stands for *)
  Fixpoint drop_lt (key : K) (m : @sl K V) : @sl K V :=
    match m with
    | [] => []
    | t :: r => match cmp (tkey t) key with Lt => drop_lt key r | _ => m end
    end.

  Fixpoint assoc (key : K) (l : list (K * V)) : option V :=
    match l with
    | [] => None
    | (k, v) :: r => match cmp key k with Eq => Some v | _ => assoc key r end
    end.

  Definition ge_key (key : K) (kv : K * V) : bool :=
    match cmp (fst kv) key with Lt => false | _ => true end.
  Definition le_key (key : K) (kv : K * V) : bool :=
    match cmp (fst kv) key with Gt => false | _ => true end.

  (* Association lists under the comparator; nothing in this block is about skip lists, and
     SST/MergeFacts.v and Mem/MemStoreFacts.v use it at bcmp. *)
  Definition ascending (l : list (K * V)) : Prop :=
    StronglySorted (fun a b => cmp (fst a) (fst b) = Lt) l.

  Lemma assoc_none_iff key (l : list (K * V)) : assoc key l = None <-> ~ In key (map fst l).
  Proof.
    induction l as [|[k v] l IH]; simpl; [split; [intros _ []|reflexivity]|].
    destruct (cmp key k) eqn:E.
    2, 3: rewrite IH; assert (k <> key) by (intros ->; rewrite (cl_refl _ L) in E; discriminate);
      (split; [intros Hn [Hk|Hin]; [contradiction|exact (Hn Hin)]|intros Hn Hin; apply Hn; right; exact Hin]).
    apply (cl_eq _ L) in E. split; [discriminate|]. intros H. destruct H. left. auto.
  Qed.

  Lemma all_gt_trans a b (l : list (K * V)) :
    cmp a b = Lt -> Forall (fun x => cmp b (fst x) = Lt) l -> Forall (fun x => cmp a (fst x) = Lt) l.
  Proof. intros Hab. apply Forall_impl. intros x. apply (cl_trans _ L), Hab. Qed.

  Lemma assoc_all_gt key (l : list (K * V)) :
    Forall (fun kv => cmp key (fst kv) = Lt) l -> assoc key l = None.
  Proof.
    induction 1 as [|[k v] l Hk _ IH]; simpl; [reflexivity|]. simpl in Hk. rewrite Hk. exact IH.
  Qed.

  Lemma assoc_in key v (l : list (K * V)) : assoc key l = Some v -> In (key, v) l.
  Proof.
    induction l as [|[k w] l IH]; simpl; [discriminate|]. destruct (cmp key k) eqn:E; auto.
    apply (cl_eq _ L) in E. subst k. intros [= ->]. left. reflexivity.
  Qed.

  Lemma assoc_in_iff key v (l : list (K * V)) :
    NoDup (map fst l) -> assoc key l = Some v <-> In (key, v) l.
  Proof.
    intros Hn. split; [apply assoc_in|].
    induction l as [|[k w] l IH]; simpl in *; [intros []|].
    apply NoDup_cons_iff in Hn. destruct Hn as [Hnk Hnl]. intros [[= -> ->]|Hin].
    - rewrite (cl_refl _ L). reflexivity.
    - destruct (cmp key k) eqn:E; try (apply IH; assumption).
      apply (cl_eq _ L) in E. subst k. apply (in_map fst) in Hin. contradiction.
  Qed.

  Lemma ascending_nodup (l : list (K * V)) : ascending l -> NoDup (map fst l).
  Proof.
    induction 1 as [|[k v] l _ IH Hk]; simpl; constructor; [|exact IH].
    intros Hin. apply in_map_iff in Hin. destruct Hin as ([k' v'] & <- & Hin).
    apply (proj1 (Forall_forall _ _) Hk) in Hin. simpl in Hin.
    rewrite (cl_refl _ L) in Hin. discriminate.
  Qed.

  Lemma assoc_ext (l1 : list (K * V)) : forall l2,
    ascending l1 -> ascending l2 -> (forall k, assoc k l1 = assoc k l2) -> l1 = l2.
  Proof.
    assert (Hhead : forall k v (r : list (K * V)), assoc k ((k, v) :: r) = Some v)
      by (intros; simpl; rewrite (cl_refl _ L); reflexivity).
    induction l1 as [|[k1 v1] r1 IH]; intros [|[k2 v2] r2] S1 S2 Hg.
    - reflexivity.
    - specialize (Hg k2). rewrite Hhead in Hg. discriminate.
    - specialize (Hg k1). rewrite Hhead in Hg. discriminate.
    - apply StronglySorted_inv in S1, S2. destruct S1 as [S1 A1], S2 as [S2 A2]. simpl in A1, A2.
      destruct (cmp k1 k2) eqn:E.
      + apply (cl_eq _ L) in E. subst k2. pose proof (Hg k1) as H1. rewrite !Hhead in H1.
        injection H1 as ->. f_equal. apply IH; [exact S1|exact S2|].
        intros k. specialize (Hg k). simpl in Hg. destruct (cmp k k1) eqn:Ek; try exact Hg.
        apply (cl_eq _ L) in Ek. subst k. rewrite !assoc_all_gt by assumption. reflexivity.
      + exfalso. specialize (Hg k1). rewrite Hhead in Hg. simpl in Hg.
        rewrite E, (assoc_all_gt _ _ (all_gt_trans _ _ _ E A2)) in Hg. discriminate.
      + exfalso. apply (cmp_gt_lt cmp L) in E. specialize (Hg k2). rewrite Hhead in Hg.
        simpl in Hg. rewrite E, (assoc_all_gt _ _ (all_gt_trans _ _ _ E A1)) in Hg. discriminate.
  Qed.

  Lemma assoc_perm (l1 l2 : list (K * V)) key :
    NoDup (map fst l1) -> Permutation l1 l2 ->
    assoc key l1 = assoc key l2.
  Proof.
    intros Hn Hp.
    assert (Hn2 : NoDup (map fst l2)).
    { eapply Permutation_NoDup; [apply Permutation_map; exact Hp | exact Hn]. }
    assert (H : forall v, assoc key l1 = Some v <-> assoc key l2 = Some v).
    { intros v. rewrite !assoc_in_iff by assumption. split; apply Permutation_in; auto using Permutation_sym. }
    destruct (assoc key l1) as [v|]; [symmetry; apply H; reflexivity|].
    destruct (assoc key l2) as [v|]; [apply H; reflexivity|reflexivity].
  Qed.
  Notation ltk key := (fun t : @tower K V => cmp (tkey t) key = Lt).
  Notation gtk key := (fun t : @tower K V => cmp key (tkey t) = Lt).

  Lemma kvs_app (a b : @sl K V) : kvs (a ++ b) = kvs a ++ kvs b.
  Proof. apply map_app. Qed.

  Lemma sorted_keys (m m' : @sl K V) : map tkey m = map tkey m' -> sorted m -> sorted m'.
  Proof.
    intros E Hs. apply (StronglySorted_map (fun a b => cmp a b = Lt) tkey).
    rewrite <- E. apply StronglySorted_map, Hs.
  Qed.

  Lemma heights_ths (m m' : @sl K V) : map th m = map th m' -> heights_ok m -> heights_ok m'.
  Proof. intros E Hh. apply Forall_map. rewrite <- E. apply Forall_map, Hh. Qed.

  Lemma sorted_suffix (pre s : @sl K V) : sorted (pre ++ s) -> sorted s.
  Proof. intros H. apply StronglySorted_app in H. apply H. Qed.

  Lemma heights_suffix (pre s : @sl K V) : heights_ok (pre ++ s) -> heights_ok s.
  Proof. intros H. apply Forall_app in H. apply H. Qed.

  Lemma tail_gt key (t : @tower K V) (r : @sl K V) :
    cmp (tkey t) key <> Lt -> Forall (gtk (tkey t)) r -> Forall (gtk key) r.
  Proof.
    intros Ht. apply Forall_impl. intros x.
    apply (cmp_le_lt_trans cmp L key (tkey t) (tkey x)).
    intros Hg. apply (cmp_gt_lt cmp L) in Hg. contradiction.
  Qed.

  Lemma kvs_tail_gt key (t : @tower K V) (r : @sl K V) :
    cmp (tkey t) key <> Lt -> Forall (gtk (tkey t)) r ->
    Forall (fun kv => cmp (fst kv) key = Gt) (kvs r).
  Proof.
    intros Hn Ht. apply Forall_map. eapply Forall_impl; [|exact (tail_gt key t r Hn Ht)].
    intros x Hx. apply (cmp_gt_lt cmp L), Hx.
  Qed.

  Lemma drop_lt_app key (pre s : @sl K V) :
    Forall (ltk key) pre -> drop_lt key (pre ++ s) = drop_lt key s.
  Proof.
    induction 1 as [|t pre Ht _ IH]; simpl; [reflexivity|]. rewrite Ht. exact IH.
  Qed.

  Lemma drop_lt_split key (m : @sl K V) :
    exists pre, m = pre ++ drop_lt key m /\ Forall (ltk key) pre.
  Proof.
    induction m as [|t r (pre & Hm & Hp)]; simpl; [exists []; auto|].
    destruct (cmp (tkey t) key) eqn:E; [exists []; auto | | exists []; auto].
    exists (t :: pre). split; [simpl; f_equal; exact Hm | constructor; assumption].
  Qed.

  Lemma drop_lt_head key (m : @sl K V) t r :
    drop_lt key m = t :: r -> cmp (tkey t) key <> Lt.
  Proof.
    induction m as [|a m IH]; simpl; [discriminate|].
    destruct (cmp (tkey a) key) eqn:E; [|exact IH|]; intros [= <- _]; congruence.
  Qed.

  Lemma drop_lt_sorted key m : sorted m -> sorted (drop_lt key m).
  Proof.
    destruct (drop_lt_split key m) as [pre [Hm _]]. intros Hs. rewrite Hm in Hs.
    apply (sorted_suffix _ _ Hs).
  Qed.

  Lemma drop_lt_length key (m : @sl K V) : (length (drop_lt key m) <= length m)%nat.
  Proof.
    destruct (drop_lt_split key m) as [pre [Hm _]].
    apply (f_equal (@length _)) in Hm. rewrite app_length in Hm. lia.
  Qed.

  (* a level-l step that moves at all passes a non-empty run of towers below the target: the
     towers too low to be seen at level l lie before one that was seen *)
  Lemma adv_spec l key (s s' : @sl K V) :
    sorted s -> adv cmp l key s = Some s' ->
    exists p pre, s = (p :: pre) ++ s' /\ Forall (ltk key) (p :: pre).
  Proof.
    revert s'. induction s as [|t r IH]; intros s' Hs; simpl; [discriminate|].
    apply StronglySorted_inv in Hs as [Hr Ht].
    destruct (Nat.ltb l (th t)).
    - destruct (cmp key (tkey t)) eqn:E; try discriminate.
      apply (cmp_gt_lt cmp L) in E.
      destruct (adv cmp l key r) as [s2|] eqn:E2; intros [= <-].
      + destruct (IH s2 Hr eq_refl) as (p & pre & -> & Hp).
        exists t, (p :: pre). split; [reflexivity | constructor; assumption].
      + exists t, []. split; [reflexivity | constructor; [exact E | constructor]].
    - intros H. destruct (IH s' Hr H) as (p & pre & -> & Hp).
      exists t, (p :: pre). split; [reflexivity|]. constructor; [|exact Hp].
      apply (cl_trans _ L _ (tkey p)); [exact (Forall_inv Ht) | exact (Forall_inv Hp)].
  Qed.

  Lemma advance_spec l key (s : @sl K V) :
    sorted s -> exists pre, s = pre ++ advance cmp l key s /\ Forall (ltk key) pre.
  Proof.
    intros Hs. unfold advance. destruct (adv cmp l key s) as [s'|] eqn:E.
    - destruct (adv_spec l key s s' Hs E) as (p & pre & H). exists (p :: pre). exact H.
    - exists []. split; [reflexivity | constructor].
  Qed.

  Lemma advance0 key (s : @sl K V) : heights_ok s -> advance cmp 0 key s = drop_lt key s.
  Proof.
    unfold advance. induction 1 as [|t r Ht _ IH]; simpl; [reflexivity|].
    apply Nat.ltb_lt in Ht. rewrite Ht, (cl_antisym _ L (tkey t) key).
    destruct (cmp (tkey t) key); simpl; try reflexivity. rewrite <- IH. reflexivity.
  Qed.

  Lemma descend_spec lvl key (s : @sl K V) :
    sorted s -> heights_ok s -> descend cmp lvl key s = drop_lt key s.
  Proof.
    revert s. induction lvl as [|l IH]; intros s Hs Hh; simpl.
    - apply advance0. exact Hh.
    - destruct (advance_spec (S l) key s Hs) as [pre [Hm Hp]].
      rewrite Hm in Hs, Hh. rewrite IH by eauto using sorted_suffix, heights_suffix.
      rewrite <- (drop_lt_app key pre _ Hp), <- Hm. reflexivity.
  Qed.

  Lemma find_ge_spec key m : sorted m -> heights_ok m -> find_ge cmp key m = drop_lt key m.
  Proof. apply descend_spec. Qed.

  Lemma assoc_drop_lt key m : sorted m ->
    assoc key (kvs m) =
    match drop_lt key m with
    | t :: _ => match cmp key (tkey t) with Eq => Some (tval t) | _ => None end
    | [] => None
    end.
  Proof.
    induction m as [|t r IH]; intros Hs; simpl; [reflexivity|].
    apply StronglySorted_inv in Hs as [Hr Ht].
    pose proof (cl_antisym _ L (tkey t) key) as Hanti.
    destruct (cmp (tkey t) key) eqn:E; simpl in Hanti; simpl; rewrite ?Hanti.
    - reflexivity.
    - apply IH. exact Hr.
    - apply assoc_all_gt, Forall_map, (tail_gt key t r); [congruence | exact Ht].
  Qed.

  Lemma get_spec key m : sorted m -> heights_ok m -> get cmp key m = assoc key (kvs m).
  Proof.
    intros Hs Hh. unfold get. rewrite find_ge_spec by assumption.
    rewrite assoc_drop_lt by assumption. reflexivity.
  Qed.

  Lemma contains_spec key m : sorted m -> heights_ok m ->
    contains cmp key m = match assoc key (kvs m) with Some _ => true | None => false end.
  Proof. intros Hs Hh. unfold contains. rewrite get_spec by assumption. reflexivity. Qed.

  Lemma locate key m : sorted m ->
    exists pre s, m = pre ++ s /\ drop_lt key m = s /\ Forall (ltk key) pre /\
      match assoc key (kvs m) with
      | Some v => exists t r, s = t :: r /\ tkey t = key /\ tval t = v
      | None => Forall (gtk key) s
      end.
  Proof.
    intros Hs. destruct (drop_lt_split key m) as [pre [Hm Hp]].
    exists pre, (drop_lt key m). repeat split; try assumption.
    rewrite (assoc_drop_lt key m Hs). pose proof (drop_lt_sorted key m Hs) as Hds.
    destruct (drop_lt key m) as [|t r] eqn:E; [constructor|].
    apply drop_lt_head in E. apply StronglySorted_inv in Hds.
    pose proof (cl_antisym _ L key (tkey t)) as Hanti.
    destruct (cmp key (tkey t)) eqn:E2; simpl in Hanti.
    - exists t, r. apply (cl_eq _ L) in E2. auto.
    - constructor; [exact E2 | apply (tail_gt key t r); [exact E|apply Hds]].
    - congruence.
  Qed.

  Lemma insert_split key v h m :
    sorted m -> heights_ok m -> (1 <= h)%nat -> assoc key (kvs m) = None ->
    exists pre s, m = pre ++ s /\ Forall (ltk key) pre /\ Forall (gtk key) s /\
      insert cmp key v h m = Some (pre ++ mkTower key v h :: s) /\
      sorted (pre ++ mkTower key v h :: s) /\ heights_ok (pre ++ mkTower key v h :: s).
  Proof.
    intros Hs Hh Hh1 Ha. destruct (locate key m Hs) as (pre & s & Hm & Hd & Hp & Hgt).
    rewrite Ha in Hgt. exists pre, s. split; [exact Hm|]. split; [exact Hp|]. split; [exact Hgt|].
    split.
    - unfold insert. rewrite find_ge_spec, Hd by assumption.
      replace (firstn (length m - length s) m) with pre.
      + destruct Hgt as [|t r Ht _]; [reflexivity|]. rewrite Ht. reflexivity.
      + rewrite Hm, app_length, Nat.add_sub. symmetry. apply firstn_len_app.
    - subst m. apply StronglySorted_app in Hs. destruct Hs as (Hs1 & Hs2 & Hs3).
      apply Forall_app in Hh. destruct Hh as [Hh2 Hh3]. split.
      + apply StronglySorted_app. repeat split; [exact Hs1 | constructor; assumption |].
        rewrite Forall_forall in Hp. intros x y Hx [<-|Hy]; [apply Hp, Hx|apply Hs3; assumption].
      + apply Forall_app. split; [exact Hh2|]. constructor; assumption.
  Qed.

  Lemma insert_spec key v h m :
    sorted m -> heights_ok m -> (1 <= h)%nat -> assoc key (kvs m) = None ->
    exists m', insert cmp key v h m = Some m' /\ sorted m' /\ heights_ok m'
               /\ Permutation (kvs m') ((key, v) :: kvs m).
  Proof.
    intros Hs Hh Hh1 Ha.
    destruct (insert_split key v h m Hs Hh Hh1 Ha) as (pre & s & -> & _ & _ & Hi & Hs' & Hh').
    eexists. split; [exact Hi|]. split; [exact Hs'|]. split; [exact Hh'|].
    rewrite !kvs_app. symmetry. apply Permutation_middle.
  Qed.

  Lemma insert_dup key v h m :
    sorted m -> heights_ok m -> assoc key (kvs m) <> None -> insert cmp key v h m = None.
  Proof.
    intros Hs Hh Ha. unfold insert. rewrite find_ge_spec by assumption.
    rewrite assoc_drop_lt in Ha by exact Hs.
    destruct (drop_lt key m) as [|t r]; [congruence|].
    destruct (cmp key (tkey t)); congruence.
  Qed.

  Definition keys_distinct (l : list (K * V * nat)) : Prop := NoDup (map (fun x => fst (fst x)) l).

  Lemma inserts_gen (l : list (K * V * nat)) : forall m,
    keys_distinct l -> Forall (fun x => 1 <= snd x)%nat l ->
    sorted m -> heights_ok m ->
    (forall x, In x l -> ~ In (fst (fst x)) (map fst (kvs m))) ->
    exists m', inserts cmp l m = Some m' /\ sorted m' /\ heights_ok m'
               /\ Permutation (kvs m') (map fst l ++ kvs m).
  Proof.
    induction l as [|[[k v] h] r IH]; intros m Hd Hh Hs Hho Hfresh; cbn [inserts map fst app].
    - exists m. repeat split; try assumption. apply Permutation_refl.
    - unfold keys_distinct in Hd. simpl in Hd. apply NoDup_cons_iff in Hd. destruct Hd as [Hnk Hdr].
      apply Forall_cons_iff in Hh. destruct Hh as [Hh1 Hhr]. simpl in Hh1.
      assert (Ha : assoc k (kvs m) = None).
      { apply assoc_none_iff. apply (Hfresh (k, v, h)). left. reflexivity. }
      destruct (insert_spec k v h m Hs Hho Hh1 Ha) as (m1 & -> & Hs1 & Hh1' & Hp1).
      destruct (IH m1 Hdr Hhr Hs1 Hh1') as (m' & Hi' & Hs' & Hh' & Hp').
      + intros x Hx Hin.
        apply (Permutation_in _ (Permutation_map fst Hp1)) in Hin. destruct Hin as [Hin|Hin].
        * apply Hnk. simpl in Hin. rewrite Hin. apply (in_map (fun y => fst (fst y))). exact Hx.
        * apply (Hfresh x); [right; exact Hx | exact Hin].
      + exists m'. repeat split; try assumption.
        eapply perm_trans; [exact Hp'|]. eapply perm_trans; [apply Permutation_app_head, Hp1|].
        symmetry. apply (Permutation_middle (map fst r) (kvs m) (k, v)).
  Qed.

  Theorem inserts_spec (l : list (K * V * nat)) :
    keys_distinct l -> Forall (fun x => 1 <= snd x)%nat l ->
    exists m, inserts cmp l [] = Some m /\ sorted m /\ heights_ok m
              /\ size m = length l /\ Permutation (kvs m) (map fst l).
  Proof.
    intros Hd Hh.
    destruct (inserts_gen l [] Hd Hh) as (m & Hi & Hs & Hho & Hp); try constructor; [auto|].
    rewrite app_nil_r in Hp. exists m. repeat split; try assumption.
    apply Permutation_length in Hp. unfold kvs in Hp. rewrite !map_length in Hp. exact Hp.
  Qed.

  Lemma drain_unbounded fuel (s : @sl K V) :
    (length s < fuel)%nat -> drain cmp fuel (mkIter s None false) = kvs s.
  Proof.
    revert fuel. induction s as [|t r IH]; intros [|f] Hf; simpl in *; try lia; [reflexivity|].
    f_equal. apply IH. lia.
  Qed.

  Lemma drain_done fuel (s : @sl K V) hi : drain cmp fuel (mkIter s hi true) = [].
  Proof. destruct fuel as [|f]; [reflexivity|]. destruct s as [|t r]; reflexivity. Qed.

  Lemma drain_bounded hi fuel (s : @sl K V) :
    sorted s -> (length s < fuel)%nat ->
    drain cmp fuel (mkIter s (Some hi) false) = filter (le_key hi) (kvs s).
  Proof.
    revert fuel. induction s as [|t r IH]; intros [|f] Hs Hf; simpl in Hf; try lia; [reflexivity|].
    apply StronglySorted_inv in Hs as [Hr Ht].
    assert (Hgt : cmp (tkey t) hi <> Lt -> filter (le_key hi) (kvs r) = []).
    { intros Hn. apply filter_all_false. eapply Forall_impl; [|exact (kvs_tail_gt hi t r Hn Ht)].
      intros x Hx. unfold le_key. rewrite Hx. reflexivity. }
    simpl. unfold iter_next. simpl. unfold le_key at 1. simpl.
    destruct (cmp (tkey t) hi) eqn:E.
    - rewrite drain_done. rewrite Hgt by congruence. reflexivity.
    - f_equal. apply IH; [exact Hr | lia].
    - symmetry. apply Hgt. congruence.
  Qed.

  Lemma scan_all_spec (m : @sl K V) : scan_all cmp m = kvs m.
  Proof. apply drain_unbounded. lia. Qed.

  Lemma filter_ge_drop_lt key m : sorted m -> filter (ge_key key) (kvs m) = kvs (drop_lt key m).
  Proof.
    induction m as [|t r IH]; intros Hs; [reflexivity|].
    apply StronglySorted_inv in Hs as [Hr Ht].
    assert (Hall : cmp (tkey t) key <> Lt ->
                   filter (ge_key key) (kvs (t :: r)) = kvs (t :: r)).
    { intros Hn. apply filter_all_true. change (kvs (t :: r)) with ((tkey t, tval t) :: kvs r). constructor.
      - unfold ge_key. simpl. destruct (cmp (tkey t) key); congruence.
      - eapply Forall_impl; [|exact (kvs_tail_gt key t r Hn Ht)].
        intros x Hx. unfold ge_key. rewrite Hx. reflexivity. }
    simpl drop_lt. destruct (cmp (tkey t) key) eqn:E.
    - apply Hall. congruence.
    - simpl. unfold ge_key at 1. simpl. rewrite E. apply IH. exact Hr.
    - apply Hall. congruence.
  Qed.

  Lemma scan_from_spec key m : sorted m -> heights_ok m ->
    scan_from cmp key m = filter (ge_key key) (kvs m).
  Proof.
    intros Hs Hh. unfold scan_from, iterator_starting_at.
    rewrite find_ge_spec by assumption. rewrite filter_ge_drop_lt by exact Hs.
    apply drain_unbounded. pose proof (drop_lt_length key m). lia.
  Qed.

  Lemma scan_between_spec lo hi m : sorted m -> heights_ok m -> cmp lo hi <> Gt ->
    scan_between cmp lo hi m = Some (filter (fun kv => ge_key lo kv && le_key hi kv) (kvs m)).
  Proof.
    intros Hs Hh Hc. unfold scan_between, iterator_between.
    assert (Hd : drain cmp (S (length m)) (mkIter (find_ge cmp lo m) (Some hi) false)
                 = filter (fun kv => ge_key lo kv && le_key hi kv) (kvs m)).
    { rewrite find_ge_spec by assumption. rewrite <- (filter_filter (le_key hi) (ge_key lo)).
      rewrite filter_ge_drop_lt by exact Hs.
      apply drain_bounded; [apply drop_lt_sorted; exact Hs|].
      pose proof (drop_lt_length lo m). lia. }
    destruct (cmp lo hi); try congruence; rewrite Hd; reflexivity.
  Qed.

  Lemma scan_between_rejects lo hi (m : @sl K V) : cmp lo hi = Gt -> scan_between cmp lo hi m = None.
  Proof. intros H. unfold scan_between, iterator_between. rewrite H. reflexivity. Qed.

  Lemma kvs_sorted m : sorted m -> ascending (kvs m).
  Proof. intros Hs. apply StronglySorted_map. exact Hs. Qed.

  Theorem skiplist_sorted_map (l : list (K * V * nat)) :
    keys_distinct l -> Forall (fun x => 1 <= snd x)%nat l ->
    exists m,
      inserts cmp l [] = Some m
      /\ size m = length l
      /\ StronglySorted (fun a b => cmp (fst a) (fst b) = Lt) (kvs m)
      /\ Permutation (kvs m) (map fst l)
      /\ (forall key, get cmp key m = assoc key (kvs m))
      /\ (forall key, contains cmp key m = match assoc key (kvs m) with Some _ => true | None => false end)
      /\ scan_all cmp m = kvs m
      /\ (forall key, scan_from cmp key m = filter (ge_key key) (kvs m))
      /\ (forall lo hi, cmp lo hi <> Gt ->
            scan_between cmp lo hi m = Some (filter (fun kv => ge_key lo kv && le_key hi kv) (kvs m)))
      /\ (forall lo hi, cmp lo hi = Gt -> scan_between cmp lo hi m = None).
  Proof.
    intros Hd Hh.
    destruct (inserts_spec l Hd Hh) as (m & Hi & Hs & Hho & Hsz & Hp).
    exists m. repeat split; intros; try exact (kvs_sorted m Hs);
      auto using get_spec, contains_spec, scan_all_spec, scan_from_spec,
                 scan_between_spec, scan_between_rejects.
  Qed.

End Facts.

(* non-vacuity: a concrete map over bytes with mixed heights *)
Example skiplist_example :
  exists m, inserts bcmp [([3%N], [30%N], 2%nat); ([1%N], [10%N], 5%nat); ([2%N; 0%N], [20%N], 1%nat)] [] = Some m
            /\ kvs m = [([1%N], [10%N]); ([2%N; 0%N], [20%N]); ([3%N], [30%N])]
            /\ get bcmp [2%N; 0%N] m = Some [20%N]
            /\ scan_between bcmp [1%N; 5%N] [3%N] m = Some [([2%N; 0%N], [20%N]); ([3%N], [30%N])].
Proof.
  eexists. split; [vm_compute; reflexivity|].
  split; [vm_compute; reflexivity|].
  split; vm_compute; reflexivity.
Qed.

Print Assumptions skiplist_sorted_map.
Print Assumptions inserts_spec.
Print Assumptions find_ge_spec.
Print Assumptions assoc_perm.
Print Assumptions skiplist_example.
